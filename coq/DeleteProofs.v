(* C12 (and the delete half of C01/C02) on the model: log.Delete removes exactly the requested messages of the
   segment that holds the smallest requested offset, reports them with their full content and storage size, and
   leaves every other message, NextOffset and the invariant untouched, whether the segment is a reader or the
   head and whether it keeps its base, is rebased, emptied or loses its tail. *)
From KV Require Import Base Model ListAux SpecFacts SearchProofs SegProofs ReaderProofs Spec LogInv AbsFacts
     PublishProofs.
From Coq Require Import ZifyBool ZifyNat.

Lemma inc_filter (f : msg -> bool) l : inc l -> inc (filter f l).
Proof.
  induction l as [|m r IH]; intros Hi; [exact I|]. destruct Hi as [Hm Hr]. cbn [filter].
  destruct (f m); [|now apply IH]. split; [|now apply IH].
  intros x Hx. apply Hm. apply filter_In in Hx. tauto.
Qed.

Lemma zmin_list_inc m r : inc (m :: r) -> zmin_list (map moff (m :: r)) = moff m.
Proof.
  revert m. induction r as [|x r IH]; intros m [Hm Hr]; [reflexivity|].
  change (zmin_list (map moff (m :: x :: r))) with (Z.min (moff m) (zmin_list (map moff (x :: r)))).
  rewrite (IH x Hr). specialize (Hm x (or_introl eq_refl)). lia.
Qed.

Definition del_of (offs : list Z) (recs : list msg) : list msg := filter (fun m => zmem (moff m) offs) recs.
Definition surv_of (offs : list Z) (recs : list msg) : list msg := filter (fun m => negb (zmem (moff m) offs)) recs.

Lemma surv_subset offs recs x : In x (surv_of offs recs) -> In x recs.
Proof. unfold surv_of. intros Hx. apply filter_In in Hx. tauto. Qed.

Lemma del_surv_disjoint offs recs d x : In d (del_of offs recs) -> In x (surv_of offs recs) -> moff d <> moff x.
Proof.
  intros Hd Hx E. apply filter_In in Hd. apply filter_In in Hx. destruct Hd as [_ Hd]. destruct Hx as [_ Hx].
  rewrite E in Hd. rewrite Hd in Hx. discriminate.
Qed.

Lemma remove_in_segment offs recs : remove_msgs recs (del_of offs recs) = surv_of offs recs.
Proof.
  unfold surv_of, remove_msgs. apply filter_ext_in. intros m Hm. f_equal.
  destruct (zmem (moff m) offs) eqn:E.
  - apply existsb_exists. exists m. split; [|lia]. unfold del_of. apply filter_In. tauto.
  - destruct (existsb (fun d => moff d =? moff m) (del_of offs recs)) eqn:E2; [|reflexivity].
    apply existsb_exists in E2. destruct E2 as (d & Hd & Heq). unfold del_of in Hd. apply filter_In in Hd.
    destruct Hd as [_ Hz]. replace (moff d) with (moff m) in Hz by lia. congruence.
Qed.

Lemma remove_elsewhere (deleted other : list msg) :
  (forall d x, In d deleted -> In x other -> moff d <> moff x) -> remove_msgs other deleted = other.
Proof.
  intros Hd. unfold remove_msgs. apply filter_all_true. intros x Hx.
  destruct (existsb (fun d => moff d =? moff x) deleted) eqn:E; [|reflexivity].
  apply existsb_exists in E. destruct E as (d & Hdin & Heq). specialize (Hd d x Hdin Hx). lia.
Qed.

Lemma remove_msgs_app_l a b del : remove_msgs (a ++ b) del = remove_msgs a del ++ remove_msgs b del.
Proof. unfold remove_msgs. apply filter_app. Qed.

Lemma remove_none l : remove_msgs l [] = l.
Proof. apply remove_elsewhere. intros d x []. Qed.

Lemma last_del_or_surv offs recs ml :
  last_opt recs = Some ml -> last_opt (del_of offs recs) = Some ml \/ last_opt (surv_of offs recs) = Some ml.
Proof.
  intros Hl. destruct (zmem (moff ml) offs) eqn:Ez; [left|right]; apply last_opt_filter_keep; try assumption.
  now rewrite Ez.
Qed.

Section DeleteProofs.
Variable H : bytes -> Z.

Lemma chain_ok_remove pre s post : chain_ok (pre ++ s :: post) -> chain_ok (pre ++ post).
Proof.
  induction pre as [|a pre IH]; intros Hc.
  - cbn [app] in *. eapply chain_ok_tail; eauto.
  - cbn [app] in *. destruct pre as [|b pre'].
    + cbn [app] in *. destruct post as [|q post']; [cbn; tauto|].
      cbn [chain_ok] in Hc |- *. destruct Hc as [(Hlt & Hoff & Hne) [(Hlt2 & Hoff2 & Hne2) Ht]].
      split; [|exact Ht]. split; [lia|]. split; [|exact Hne]. intros m Hm. specialize (Hoff m Hm). lia.
    + cbn [app] in *. cbn [chain_ok] in Hc |- *. destruct Hc as [Hh Ht]. split; [exact Hh|]. now apply IH.
Qed.

Lemma chain_ok_app_l pre l : chain_ok (pre ++ l) -> chain_ok pre.
Proof.
  induction pre as [|a pre IH]; intros Hc; [exact I|]. cbn [app] in Hc.
  destruct pre as [|b pre']; [cbn; tauto|]. cbn [app] in *. cbn [chain_ok] in Hc |- *.
  destruct Hc as [Hh Ht]. split; [exact Hh|]. now apply IH.
Qed.

Lemma rewritten_base p mv iv m r : inc (m :: r) -> sbase (rewritten H p mv iv (m :: r)) = moff m.
Proof. apply zmin_list_inc. Qed.

Lemma rewritten_head p mv iv l : head_inv (rewritten H p mv iv l).
Proof. exists iv, (derive H p mv l). split; [reflexivity|apply derive_from_match]. Qed.

Lemma rewritten_inv p mv iv l :
  l <> [] -> inc l -> (forall x, In x l -> 0 <= moff x) -> seg_inv (rewritten H p mv iv l).
Proof.
  intros Hne Hi Hnn. destruct l as [|m r]; [congruence|].
  split; [now apply inc_recs_sorted|]. split; [exact Hnn|]. unfold first_is_base, idx_inv.
  rewrite rewritten_base by exact Hi. cbn [srecs sidx sver rewritten].
  split; [reflexivity|]. split; [|apply Hnn; now left].
  intros iv' items E. injection E as <- <-. right. apply derive_from_match.
Qed.

Lemma rewritten_chain p mv iv pre s post l :
  chain_ok (pre ++ s :: post) -> seg_inv s -> l <> [] -> inc l -> incl l (srecs s) ->
  chain_ok (pre ++ rewritten H p mv iv l :: post).
Proof.
  intros Hch Hs Hne Hi Hsub. destruct l as [|m r]; [congruence|].
  assert (Hm : In m (srecs s)) by (apply Hsub; now left).
  apply (chain_ok_replace pre s post _ Hch); rewrite ?rewritten_base by exact Hi.
  - now apply seg_offsets_ge_base.
  - intros _. split; [discriminate|exact Hsub].
  - intros q Hq. apply chain_ok_app_r in Hch. eapply chain_offsets_lt; eauto.
Qed.

Theorem log_delete_relative st offs c :
  opened st = Some c -> cro c = false -> offs <> [] -> zmin_list offs < 0 ->
  log_delete H st offs = Err EDeleteRelative.
Proof.
  intros Hc Hro Hne Hmin. unfold log_delete. rewrite (get_cfg_opened st c Hc). cbn [bind]. rewrite Hro.
  destruct offs; [congruence|]. destruct (zmin_list (z :: offs) <? 0) eqn:E; [reflexivity|lia].
Qed.

Theorem log_delete_empty st c :
  opened st = Some c -> cro c = false -> log_delete H st [] = Ok (st, ([], 0)).
Proof. intros Hc Hro. unfold log_delete. rewrite (get_cfg_opened st c Hc). cbn [bind]. now rewrite Hro. Qed.

Lemma open_log_reader_ver s v : open_log_reader s = Ok v -> v = sver s.
Proof.
  unfold open_log_reader. destruct (sver s); [|congruence]. destruct (srecs s) as [|m r]; [congruence|].
  destruct (moff m =? sbase s); congruence.
Qed.

(* the segment Model.log_delete works on, and its position *)
Definition target (st : lstate) (offs : list Z) : option (cfg * Z * seg) :=
  match opened st with
  | None => None
  | Some c =>
    if cro c then None
    else match offs with
    | [] => None
    | _ =>
      if zmin_list offs <? 0 then None
      else match seg_get (bases (segs st)) (zmin_list offs) with
      | Err _ => None
      | Ok i => match znth (segs st) i with None => None | Some src => Some (c, i, src) end
      end
    end
  end.

(* CrashDir.delete_prog, DurableDelete.delete_full and DurableDeleteChain.head_target repeat this search word for
   word; stated for any e and f, so that `unfold delete_prog; rewrite target_walk` (e and f found by unification)
   leaves of their six case distinctions the one on target st offs *)
Lemma target_walk {A} (e : A) (f : cfg -> Z -> seg -> A) st offs :
  match opened st with
  | None => e
  | Some c =>
    if cro c then e
    else match offs with
    | [] => e
    | _ =>
      if zmin_list offs <? 0 then e
      else match seg_get (bases (segs st)) (zmin_list offs) with
      | Err _ => e
      | Ok i => match znth (segs st) i with None => e | Some src => f c i src end
      end
    end
  end = match target st offs with Some (c, i, src) => f c i src | None => e end.
Proof.
  unfold target. destruct (opened st) as [c|]; [|reflexivity]. destruct (cro c); [reflexivity|]. destruct offs; [reflexivity|].
  destruct (_ <? 0); [reflexivity|]. destruct (seg_get _ _); [|reflexivity]. now destruct (znth _ _).
Qed.

Lemma target_znth st offs c i src : target st offs = Some (c, i, src) -> znth (segs st) i = Some src.
Proof.
  unfold target. destruct (opened st); [|discriminate]. destruct (cro _); [discriminate|]. destruct offs; [discriminate|].
  destruct (_ <? 0); [discriminate|]. destruct (seg_get _ _) as [j|]; [|discriminate].
  destruct (znth (segs st) j) eqn:Hz; [|discriminate]. intros E. injection E as _ <- <-. exact Hz.
Qed.

(* what takes the place of src: nothing or the rewritten survivors for a reader; for the writing segment
   (post = []) a new empty head at NextOffset stands in when no message survives and is appended when the
   newest message was deleted, so that NextOffset never moves back *)
Definition delete_mid (c : cfg) (src : seg) (offs : list Z) (post : list seg) : list seg :=
  let mv := if ckeeprw c then sver src else cnewver c in
  let rs := rewritten H (cparams c) mv mv (surv_of offs (srecs src)) in
  let nxt := idx_next src (head_items src) in
  match post, surv_of offs (srecs src) with
  | [], [] => [new_head c nxt]
  | [], _ :: _ =>
    if match last_opt (del_of offs (srecs src)) with Some m => moff m | None => -3 end =? nxt - 1
    then [rs; new_head c nxt] else [rs]
  | _ :: _, [] => []
  | _ :: _, _ :: _ => [rs]
  end.

Lemma log_delete_inv st offs st' deleted size :
  log_delete H st offs = Ok (st', (deleted, size)) ->
  exists c, opened st = Some c /\ cro c = false /\
  ((deleted = [] /\ st' = st /\ size = 0 /\
    match target st offs with Some (_, _, src) => del_of offs (srecs src) = [] | None => True end) \/
   exists pre src post,
     segs st = pre ++ src :: post /\ target st offs = Some (c, zlen pre, src) /\
     deleted = del_of offs (srecs src) /\ deleted <> [] /\ size = deleted_size (cparams c) (sver src) deleted /\
     st' = mkState (pre ++ delete_mid c src offs post ++ post)
                   (match post with [] => next_time st src | _ :: _ => wcarry st end) (opened st) (lvirt st)).
Proof.
  unfold log_delete, get_cfg, target, bind, set_segs. destruct (opened st) as [c|]; [|discriminate]. intros E. exists c. split; [reflexivity|]. revert E.
  destruct (cro c); [discriminate|]. intros E. split; [reflexivity|]. revert E.
  destruct offs as [|o0 orest]; [intros E; injection E as <- <- <-; left; auto|].
  set (offs := o0 :: orest).
  destruct (zmin_list offs <? 0); [discriminate|].
  destruct (seg_get (bases (segs st)) (zmin_list offs)) as [i|]; [|discriminate].
  destruct (znth (segs st) i) as [src|] eqn:Esrc; [|discriminate].
  destruct (open_log_reader src) as [v|] eqn:Ev; [|discriminate]. apply open_log_reader_ver in Ev. subst v.
  fold (del_of offs (srecs src)). fold (surv_of offs (srecs src)).
  destruct (del_of offs (srecs src)) as [|d0 dr] eqn:Edel; [intros E; injection E as <- <- <-; left; auto|].
  rewrite <- Edel.
  destruct (znth_split _ _ _ Esrc) as (pre & post & Es & <-).
  replace (Z.to_nat (zlen pre)) with (length pre) by (unfold zlen; lia).
  rewrite (proj1 (is_last_split st pre src post Es)), Es, firstn_app_exact_l, skipn_app_cons, replace_nth_app.
  intros E. right. exists pre, src, post. split; [reflexivity|]. split; [reflexivity|].
  assert (Hne : del_of offs (srecs src) <> []) by (rewrite Edel; discriminate). unfold delete_mid.
  destruct post; destruct (surv_of offs (srecs src)); try destruct (_ =? _); injection E as <- <- <-; auto 6.
Qed.

Lemma delete_mid_in c src offs post s :
  In s (delete_mid c src offs post) ->
  s = rewritten H (cparams c) (if ckeeprw c then sver src else cnewver c) (if ckeeprw c then sver src else cnewver c)
                (surv_of offs (srecs src)) \/
  s = new_head c (idx_next src (head_items src)).
Proof.
  unfold delete_mid. destruct post; destruct (surv_of offs (srecs src)); try destruct (_ =? _); cbn [In]; intuition.
Qed.

Lemma log_delete_segs (Q : seg -> Prop) c st offs st2 r :
  opened st = Some c -> log_delete H st offs = Ok (st2, r) -> Forall Q (segs st) ->
  (forall b, Q (new_head c b)) ->
  (forall src mv iv f, Q src -> Q (rewritten H (cparams c) mv iv (filter f (srecs src)))) ->
  Forall Q (segs st2).
Proof.
  intros Hc E HX Hnew Hrw. destruct r as [deleted size].
  destruct (log_delete_inv st offs st2 deleted size E)
    as (c' & Hc' & _ & [(_ & -> & _)|(pre & src & post & Es & _ & _ & _ & _ & ->)]); [exact HX|].
  rewrite Hc in Hc'. injection Hc' as <-. rewrite Es in HX. destruct (Forall_split _ _ _ _ HX) as (Hpre & Hsrc & Hpost).
  cbn [segs]. apply Forall_app. split; [exact Hpre|]. apply Forall_app. split; [|exact Hpost].
  apply Forall_forall. intros s Hs. destruct (delete_mid_in c src offs post s Hs) as [-> | ->]; [|apply Hnew].
  unfold surv_of. apply Hrw. exact Hsrc.
Qed.

Lemma disjoint_pre pre s post d x :
  chain_ok (pre ++ s :: post) -> Forall seg_inv (pre ++ s :: post) ->
  In d (srecs s) -> In x (all_recs pre) -> moff d <> moff x.
Proof.
  intros Hc HF Hd Hx. pose proof (chain_pre_lt pre s post x Hc Hx).
  destruct (Forall_split _ _ _ _ HF) as (_ & Hs & _). pose proof (seg_offsets_ge_base s d Hs Hd). lia.
Qed.

Lemma disjoint_post pre s post d x :
  chain_ok (pre ++ s :: post) -> Forall seg_inv (pre ++ s :: post) ->
  In d (srecs s) -> In x (all_recs post) -> moff d <> moff x.
Proof.
  intros Hc HF Hd Hx. destruct (in_all_recs _ _ Hx) as (q & Hq & Hxq).
  apply chain_ok_app_r in Hc. pose proof (chain_offsets_lt s post q d Hc Hq Hd).
  destruct (Forall_split _ _ _ _ HF) as (_ & _ & Hpost). rewrite Forall_forall in Hpost.
  pose proof (seg_offsets_ge_base q x (Hpost q Hq) Hxq). lia.
Qed.

Lemma abs_after_delete pre s post offs :
  chain_ok (pre ++ s :: post) -> Forall seg_inv (pre ++ s :: post) ->
  all_recs pre ++ surv_of offs (srecs s) ++ all_recs post =
  remove_msgs (all_recs (pre ++ s :: post)) (del_of offs (srecs s)).
Proof.
  intros Hc HF. rewrite all_recs_app, all_recs_cons, !remove_msgs_app_l, remove_in_segment.
  rewrite (remove_elsewhere _ (all_recs pre)).
  2:{ intros d x Hd Hx. unfold del_of in Hd. apply filter_In in Hd. eapply disjoint_pre; eauto. tauto. }
  rewrite (remove_elsewhere _ (all_recs post)); [reflexivity|].
  intros d x Hd Hx. unfold del_of in Hd. apply filter_In in Hd. eapply disjoint_post; eauto. tauto.
Qed.

Lemma Inv_splice st c pre s post mid w :
  Inv st -> opened st = Some c -> cro c = false -> segs st = pre ++ s :: post ->
  Forall seg_inv (pre ++ mid ++ post) -> chain_ok (pre ++ mid ++ post) ->
  (post = [] -> exists mid' hd, mid = mid' ++ [hd] /\ head_inv hd /\ recs_next hd = recs_next s) ->
  Inv (mkState (pre ++ mid ++ post) w (opened st) (lvirt st)) /\
  anext (abs (mkState (pre ++ mid ++ post) w (opened st) (lvirt st))) = anext (abs st).
Proof.
  intros HInv Hc Hro Es HF Hch Hmid. rewrite (Inv_lvirt st HInv).
  destruct (Inv_writer st c HInv Hc Hro) as (pre0 & hd0 & Es0 & _ & _ & Hhd0). rewrite Hc, (abs_snoc st pre0 hd0 Es0).
  assert (Hl : exists l hd, pre ++ mid ++ post = l ++ [hd] /\ head_inv hd /\ recs_next hd = recs_next hd0).
  { rewrite Es in Es0. destruct (exists_last_or_nil post) as [->|(post' & hd & ->)].
    - destruct (Hmid eq_refl) as (mid' & hd & -> & Hh & Hn). apply app_inj_tail in Es0. destruct Es0 as [_ <-].
      exists (pre ++ mid'), hd. rewrite app_nil_r, app_assoc. auto.
    - change (pre ++ s :: post' ++ [hd]) with (pre ++ (s :: post') ++ [hd]) in Es0. rewrite app_assoc in Es0.
      apply app_inj_tail in Es0. destruct Es0 as [_ <-]. exists (pre ++ mid ++ post'), hd. rewrite !app_assoc. auto. }
  destruct Hl as (l & hd & El & Hh & Hn). rewrite El in *.
  split; [apply Inv_snoc; auto|]. erewrite abs_snoc by reflexivity. exact Hn.
Qed.

Lemma all_recs_one s : all_recs [s] = srecs s.
Proof. apply app_nil_r. Qed.

Lemma delete_mid_ok c pre src post offs :
  Forall seg_inv (pre ++ src :: post) -> chain_ok (pre ++ src :: post) -> (post = [] -> head_inv src) ->
  Forall seg_inv (pre ++ delete_mid c src offs post ++ post) /\
  chain_ok (pre ++ delete_mid c src offs post ++ post) /\
  all_recs (delete_mid c src offs post) = surv_of offs (srecs src) /\
  (post = [] -> exists mid' hd, delete_mid c src offs post = mid' ++ [hd] /\
                                head_inv hd /\ recs_next hd = recs_next src).
Proof.
  intros HF Hch Hhd. destruct (Forall_split _ _ _ _ HF) as (HFpre & Hsrc & HFpost).
  unfold delete_mid. set (mv := if ckeeprw c then sver src else cnewver c).
  set (surv := surv_of offs (srecs src)). set (rs := rewritten H (cparams c) mv mv surv).
  assert (Hsub : incl surv (srecs src)) by (intros x; apply surv_subset).
  assert (Hrs : surv <> [] -> seg_inv rs /\ chain_ok (pre ++ rs :: post)).
  { intros Hne. pose proof (inc_filter _ _ (recs_sorted_inc _ (proj1 Hsrc)) : inc surv) as Hi. split.
    - apply rewritten_inv; [exact Hne|exact Hi|]. intros x Hx. destruct Hsrc as (_ & Hnn & _). apply Hnn, Hsub, Hx.
    - now apply (rewritten_chain _ _ _ pre src post). }
  destruct post as [|q post'].
  - (* src is the writing segment *)
    specialize (Hhd eq_refl). rewrite (head_idx_next src Hsrc Hhd).
    pose proof (new_head_inv c _ (recs_next_nonneg src Hsrc)) as Hnh.
    destruct surv as [|s0 sr] eqn:Esurv.
    + (* the new empty head is at NextOffset, which is not below the base of src *)
      cbn [app]. split; [apply Forall_app_last; auto|].
      split; [|split; [reflexivity|intros _; exists [], (new_head c (recs_next src)); auto using new_head_head]].
      apply (chain_ok_replace pre src [] _ Hch); [now apply recs_next_ge_base|congruence|intros q' []].
    + destruct (Hrs ltac:(discriminate)) as [Hrsi Hrsc]. fold rs.
      assert (HFrs : Forall seg_inv (pre ++ [rs])) by (apply Forall_app_last; auto).
      pose proof (all_recs_one rs : all_recs [rs] = s0 :: sr) as Hall.
      destruct (last_opt (srecs src)) as [ml|] eqn:Eml.
      2:{ apply last_opt_none in Eml. specialize (Hsub s0 (or_introl eq_refl)). rewrite Eml in Hsub. contradiction. }
      assert (Hn : recs_next src = moff ml + 1) by (unfold recs_next; now rewrite Eml).
      destruct (last_del_or_surv offs _ _ Eml) as [Hld|Hls]; rewrite ?Hld.
      * (* the newest message is deleted *)
        replace (moff ml =? recs_next src - 1) with true by lia.
        assert (Hle : recs_next rs <= recs_next src).
        { unfold recs_next at 1. cbn [srecs rs rewritten]. destruct (last_opt (s0 :: sr)) as [x|] eqn:Ex; [|discriminate].
          apply last_opt_in, Hsub in Ex. pose proof (recs_lt_next src x Hsrc Ex). lia. }
        destruct (chain_snoc_new_head c pre rs (recs_next src) HFrs Hrsc ltac:(discriminate) Hle) as [HF' Hch'].
        rewrite <- app_assoc in HF', Hch'. split; [exact HF'|]. split; [exact Hch'|]. split; [exact Hall|].
        intros _. exists [rs], (new_head c (recs_next src)). auto using new_head_head.
      * (* the newest message survives *)
        assert (Hnd : (match last_opt (del_of offs (srecs src)) with Some m => moff m | None => -3 end =? recs_next src - 1) = false).
        { destruct (last_opt (del_of offs (srecs src))) as [d|] eqn:Ed; [|pose proof (recs_next_nonneg src Hsrc); lia].
          pose proof (del_surv_disjoint offs _ d ml (last_opt_in _ _ Ed) (last_opt_in _ _ Hls)). lia. }
        rewrite Hnd. unfold surv in Esurv. rewrite Esurv in Hls. split; [exact HFrs|]. split; [exact Hrsc|]. split; [exact Hall|].
        intros _. exists [], rs. split; [reflexivity|]. split; [apply rewritten_head|].
        unfold recs_next at 1. cbn [srecs rs rewritten]. rewrite Hls. lia.
  - (* src is a reader *)
    destruct surv as [|s0 sr] eqn:Esurv.
    + (* no message survives *)
      split; [apply Forall_app; split; assumption|]. split; [|split; [reflexivity|discriminate]].
      now apply (chain_ok_remove pre src).
    + destruct (Hrs ltac:(discriminate)) as [Hrsi Hrsc]. fold rs.
      split; [apply Forall_app; split; [exact HFpre|constructor; assumption]|]. split; [exact Hrsc|].
      split; [exact (all_recs_one rs)|discriminate].
Qed.

Definition delete_post (st : lstate) (c : cfg) (offs : list Z) (st' : lstate) (deleted : list msg) (size : Z) : Prop :=
  Inv st' /\ opened st' = opened st /\
  anext (abs st') = anext (abs st) /\
  live (abs st') = remove_msgs (live (abs st)) deleted /\
  exists src, In src (segs st) /\ deleted = del_of offs (srecs src) /\
              size = deleted_size (cparams c) (sver src) deleted.

Theorem log_delete_ok st offs st' deleted size c :
  Inv st -> opened st = Some c ->
  log_delete H st offs = Ok (st', (deleted, size)) ->
  (deleted = [] /\ st' = st /\ size = 0) \/ delete_post st c offs st' deleted size.
Proof.
  intros HInv Hc E.
  destruct (log_delete_inv st offs st' deleted size E)
    as (c' & Hc' & Hro & [(Hd & Hs & Hsz & _)|(pre & src & post & Es & _ & Hd & _ & Hsz & ->)]); [left; auto|right].
  rewrite Hc in Hc'. injection Hc' as <-.
  pose proof (Inv_seg_inv st HInv) as HF. pose proof (Inv_chain st HInv) as Hch. rewrite Es in HF, Hch.
  assert (Hhd : post = [] -> head_inv src) by (intros ->; exact (Inv_last st c pre src HInv Hc Hro Es)).
  destruct (delete_mid_ok c pre src post offs HF Hch Hhd) as (HF' & Hch' & Hrecs & Hlast).
  destruct (Inv_splice st c pre src post _ (match post with [] => next_time st src | _ :: _ => wcarry st end)
              HInv Hc Hro Es HF' Hch' Hlast) as [HI' Hnext].
  split; [exact HI'|]. split; [reflexivity|]. split; [exact Hnext|]. split.
  - unfold abs. cbn [live segs]. rewrite Es, Hd, <- (abs_after_delete pre src post offs Hch HF).
    now rewrite !all_recs_app, Hrecs.
  - exists src. split; [rewrite Es; apply in_elt|]. split; assumption.
Qed.

Lemma inc_nodup_offs l : inc l -> nodup_offs l = true.
Proof.
  induction l as [|m r IH]; intros Hi; [reflexivity|]. destruct Hi as [Hm Hr]. cbn [nodup_offs].
  rewrite (IH Hr), andb_true_r.
  destruct (existsb (fun x => moff x =? moff m) r) eqn:E; [|reflexivity].
  apply existsb_exists in E. destruct E as (x & Hx & Heq). specialize (Hm x Hx). lia.
Qed.

Lemma sum_sizes_deleted p v ms :
  sum_sizes (item_size p) ms (map (fun _ => v) ms) = Some (deleted_size p v ms).
Proof.
  induction ms as [|m r IH]; [reflexivity|]. cbn [map sum_sizes deleted_size fold_right].
  fold (deleted_size p v r). rewrite IH. unfold rec_size, rec_overhead, overhead. destruct v; apply f_equal; lia.
Qed.

Lemma mem_msg_in m l : In m l -> mem_msg m l = true.
Proof. intros Hin. unfold mem_msg. apply existsb_exists. exists m. split; [assumption|apply msg_eqb_refl]. Qed.

Theorem log_delete_checker st offs st' deleted size c :
  Inv st -> opened st = Some c -> offs <> [] ->
  log_delete H st offs = Ok (st', (deleted, size)) ->
  exists v, check_delete (abs st) (item_size (cparams c)) offs
                         (OOk (size, map (fun _ => v) deleted, deleted)) = true.
Proof.
  intros HInv Hc Hoffs Hd.
  assert (Hmin : (zmin_list offs <? 0) = false).
  { destruct (log_delete_inv st offs st' deleted size Hd) as (c' & Hc' & Hro & _).
    rewrite Hc in Hc'. injection Hc' as <-. destruct (zmin_list offs <? 0) eqn:Em; [|reflexivity].
    rewrite (log_delete_relative st offs c Hc Hro Hoffs) in Hd by lia. discriminate. }
  destruct (log_delete_ok st offs st' deleted size c HInv Hc Hd) as [(-> & _ & ->)|Hpost].
  - exists V2. unfold check_delete. destruct offs; [congruence|]. rewrite Hmin. reflexivity.
  - destruct Hpost as (_ & _ & _ & _ & src & Hsrc & Hdel & Hsize). exists (sver src).
    unfold check_delete. destruct offs as [|o0 orest] eqn:Eo; [congruence|]. rewrite <- Eo in *. rewrite Hmin.
    pose proof (Inv_seg_inv st HInv) as HF.
    assert (Hsi : seg_inv src) by (rewrite Forall_forall in HF; now apply HF).
    assert (Hincd : inc deleted).
    { rewrite Hdel. unfold del_of. apply inc_filter. apply recs_sorted_inc. destruct Hsi as (Hs & _). exact Hs. }
    rewrite (inc_nodup_offs deleted Hincd). rewrite Hsize, sum_sizes_deleted, Z.eqb_refl, !andb_true_r.
    apply forallb_forall. intros m Hm. rewrite Hdel in Hm. unfold del_of in Hm. apply filter_In in Hm.
    destruct Hm as [Hin Hz]. rewrite Hz, andb_true_r. apply mem_msg_in.
    unfold abs. cbn [live]. unfold all_recs. apply in_concat. exists (srecs src). split; [now apply in_map|assumption].
Qed.

End DeleteProofs.
