(* Close, Open (Check / Recover / EagerVersionMigrate, read-write and read-only), index removal, Migrate and RecoverDir
   on a closed directory: the invariant is re-established and the abstract log (live messages and NextOffset) is
   unchanged.  C01 (reopen), C11, C17.  All of them leave records and bases alone (same_recs, segment by segment); what
   they do to index files and versions is captured once, by [stable]. *)
From KV Require Import Base Model ListAux SearchProofs SegProofs ReaderProofs Spec LogInv PublishProofs
     DeleteProofs.
From Coq Require Import ZifyBool ZifyNat.

Section OpenProofs.
Variable H : bytes -> Z.

Definition DirInv (l : list seg) : Prop := Forall seg_inv l /\ chain_ok l.

Definition abs_dir (l : list seg) : alog :=
  mkAlog (all_recs l) (match last_opt l with Some hd => recs_next hd | None => 0 end).

Lemma abs_dir_abs st : abs st = abs_dir (segs st).
Proof. reflexivity. Qed.

Definition same_recs (s s' : seg) : Prop := srecs s' = srecs s /\ sbase s' = sbase s.

Lemma same_recs_refl s : same_recs s s.
Proof. split; reflexivity. Qed.

Lemma same_recs_trans a b c : same_recs a b -> same_recs b c -> same_recs a c.
Proof. intros [A1 A2] [B1 B2]. split; congruence. Qed.

Lemma seg_inv_recs s s' :
  seg_inv s -> same_recs s s' -> idx_inv s' -> seg_inv s'.
Proof.
  intros (Hs & Hnn & Hfb & _ & Hb) (Hr & Hbb) Hix. unfold seg_inv, first_is_base in *.
  rewrite Hr, Hbb. repeat split; assumption.
Qed.

Lemma Forall2_refl_recs l : Forall2 same_recs l l.
Proof. apply Forall2_diag, Forall_forall. intros x _. apply same_recs_refl. Qed.

Lemma Forall2_app_recs a a' b b' : Forall2 same_recs a a' -> Forall2 same_recs b b' -> Forall2 same_recs (a ++ b) (a' ++ b').
Proof. apply Forall2_app. Qed.

Lemma chain_ok_recs l l' : Forall2 same_recs l l' -> chain_ok l -> chain_ok l'.
Proof.
  intros HF. induction HF as [|s s' r r' Hs HF IH]; [trivial|].
  cbn [chain_ok]. intros [Hh Ht]. split; [|apply IH; exact Ht].
  destruct HF as [|s2 s2' r2 r2' Hs2 HF2]; [trivial|].
  destruct Hs as (Hr & Hb). destruct Hs2 as (Hr2 & Hb2). rewrite Hr, Hb, Hb2. exact Hh.
Qed.

Lemma abs_dir_recs l l' : Forall2 same_recs l l' -> abs_dir l' = abs_dir l.
Proof.
  intros HF. unfold abs_dir. f_equal.
  - unfold all_recs. induction HF as [|s s' r r' [Hr _] _ IH]; [reflexivity|]. cbn [map concat]. now rewrite Hr, IH.
  - induction HF as [|s s' r r' [Hr Hb] HF IH]; [reflexivity|].
    destruct HF; [unfold recs_next; cbn; now rewrite Hr, Hb|]. rewrite !last_opt_cons_cons. exact IH.
Qed.

Lemma dirinv_recs l l' : Forall seg_inv l' -> Forall2 same_recs l l' -> DirInv l -> DirInv l'.
Proof. intros HF H2 [_ Hc]. split; [assumption|apply (chain_ok_recs l); assumption]. Qed.

Lemma same_recs_ok pre s s' post :
  DirInv (pre ++ s :: post) -> same_recs s s' -> idx_inv s' ->
  DirInv (pre ++ s' :: post) /\ abs_dir (pre ++ s' :: post) = abs_dir (pre ++ s :: post).
Proof.
  intros HD Hr Hix. pose proof HD as [HF _]. destruct (Forall_split _ _ _ _ HF) as (HFpre & Hs & HFpost).
  assert (H2 : Forall2 same_recs (pre ++ s :: post) (pre ++ s' :: post)).
  { apply Forall2_app; [apply Forall2_refl_recs|]. constructor; [exact Hr|apply Forall2_refl_recs]. }
  split; [|exact (abs_dir_recs _ _ H2)]. refine (dirinv_recs _ _ _ H2 HD).
  apply Forall_app. split; [exact HFpre|]. constructor; [exact (seg_inv_recs s s' Hs Hr Hix)|exact HFpost].
Qed.

Lemma empty_index_head s v :
  seg_inv s -> srecs s = [] -> seg_inv (set_idx s (Some (v, []))) /\ head_inv (set_idx s (Some (v, []))).
Proof.
  intros Hi Er. split.
  - apply (seg_inv_recs s); [assumption|split; reflexivity|]. intros iv items E. injection E as <- <-. now left.
  - exists v, []. split; [reflexivity|]. cbn [srecs set_idx]. rewrite Er. split; reflexivity.
Qed.

Lemma idx_reader_ok s iv items :
  seg_inv s -> sidx s = Some (iv, items) -> open_idx_reader s (iv, items) = Ok items.
Proof.
  intros (_ & _ & Hfb & Hix & _) Hsi. unfold open_idx_reader. destruct iv; [|reflexivity].
  destruct items as [|it r]; [reflexivity|].
  destruct (Hix V1 (it :: r) Hsi) as [E|[Ho _]]; [discriminate|].
  unfold first_is_base in Hfb. destruct (srecs s) as [|m rr]; [discriminate|]. cbn in Ho. injection Ho as Ho _.
  now rewrite Ho, Hfb, Z.eqb_refl.
Qed.

Lemma ensure_index_sidx p v s s' items :
  seg_inv s -> ensure_index H p v s = Ok (s', items) -> exists iv, sidx s' = Some (iv, items).
Proof.
  intros Hi. unfold ensure_index, reindex. destruct (needs_reindex s).
  - rewrite (seg_inv_open_log s Hi). cbn [bind]. intros E. injection E as <- <-. eexists. reflexivity.
  - destruct (sidx s) as [[iv its]|] eqn:Es; [|discriminate]. rewrite (idx_reader_ok s iv its Hi Es). cbn [bind].
    intros E. injection E as <- <-. eauto.
Qed.

Lemma recover_step_ok p s : seg_inv s -> exists s', segment_recover H p s = Ok s' /\ seg_inv s' /\ same_recs s s'.
Proof.
  intros Hi. unfold segment_recover. rewrite (seg_inv_open_log s Hi). cbn [bind].
  destruct (sidx s) as [[iv items]|] eqn:Esi; [|exists s; auto using same_recs_refl].
  rewrite (idx_reader_ok s iv items Hi Esi).
  destruct (list_eqb item_eqb items (derive H p (sver s) (srecs s))); [exists s; auto using same_recs_refl|].
  eexists. split; [reflexivity|]. split; [apply seg_inv_set_idx; assumption|split; reflexivity].
Qed.

Lemma migrate_step_ok p v s : seg_inv s -> exists s', segment_migrate H p v v s = Ok s' /\ seg_inv s' /\ same_recs s s'.
Proof.
  intros Hi. unfold segment_migrate. rewrite (seg_inv_open_log s Hi). cbn [bind].
  destruct (ver_eqb (sver s) v); [exists s; auto using same_recs_refl|].
  eexists. split; [reflexivity|]. split; [|split; reflexivity].
  apply (seg_inv_recs s); [assumption|split; reflexivity|].
  intros iv items E. injection E as <- <-. right. apply derive_from_match.
Qed.

Lemma log_size_small v r : log_size v r <= 8 -> r = [].
Proof.
  unfold log_size. destruct r as [|m r]; [reflexivity|]. cbn [recs_size]. intros E.
  pose proof (rec_size_pos v m). pose proof (recs_size_nonneg v r). unfold hdr_size in E. destruct v; lia.
Qed.

Lemma open_writer_ok c s :
  seg_inv s -> exists s', open_writer H c s = Ok s' /\ seg_inv s' /\ same_recs s s' /\ head_inv s'.
Proof.
  intros Hi. unfold open_writer.
  (* message.OpenWriter: an empty file is (re)created in the new version *)
  assert (H1 : exists s1, (if seg_log_size s =? 0 then Ok (mkSeg (sbase s) (cnewver c) (srecs s) (sidx s))
                           else do _ <- open_log_reader s; Ok s) = Ok s1 /\ seg_inv s1 /\ same_recs s s1).
  { destruct (seg_log_size s =? 0) eqn:E0.
    - eexists. split; [reflexivity|]. split; [|split; reflexivity].
      assert (Er : srecs s = []) by (apply (log_size_small (sver s)); unfold seg_log_size in E0; lia).
      apply (seg_inv_recs s); [assumption|split; reflexivity|]. destruct Hi as (_ & _ & _ & Hix & _).
      intros iv items Ei. left. destruct (Hix iv items Ei) as [->|Hm]; [reflexivity|].
      rewrite Er in Hm. now apply items_match_nil in Hm.
    - rewrite (seg_inv_open_log s Hi). exists s. auto using same_recs_refl. }
  destruct H1 as (s1 & -> & Hi1 & Hr1). cbn [bind].
  (* the index of the existing records is loaded, and rebuilt if missing *)
  assert (H2 : exists s2, (if 8 <? seg_log_size s1 then do r <- ensure_index H (cparams c) (cnewver c) s1; Ok (fst r)
                           else Ok s1) = Ok s2 /\ seg_inv s2 /\ same_recs s s2 /\ (srecs s2 <> [] -> head_inv s2)).
  { destruct (8 <? seg_log_size s1) eqn:E8.
    - destruct (ensure_index_ok H (cparams c) (cnewver c) s1 Hi1) as (s2 & items & Ee & [Hm _] & Hi2 & Hr & Hb & _).
      rewrite Ee. exists s2. split; [reflexivity|]. split; [assumption|].
      split; [apply (same_recs_trans _ s1); [assumption|split; assumption]|].
      intros _. destruct (ensure_index_sidx _ _ _ _ _ Hi1 Ee) as (iv & Hsi). exists iv, items. auto.
    - exists s1. split; [reflexivity|]. split; [assumption|]. split; [assumption|]. intros Hne. exfalso. apply Hne.
      apply (log_size_small (sver s1)). unfold seg_log_size in E8. lia. }
  destruct H2 as (s2 & -> & Hi2 & Hr2 & Hh2). cbn [bind].
  (* index.OpenWriter *)
  destruct (srecs s2) as [|m0 r0] eqn:Er2.
  - (* no records: an index file, if there is one, is empty; it is replaced unless it is a V2 file *)
    destruct (empty_index_head s2 (cnewver c) Hi2 Er2) as [He1 He2].
    destruct (sidx s2) as [[iv items]|] eqn:Esi; [|eexists; split; [reflexivity|auto]].
    assert (items = []) as ->.
    { destruct Hi2 as (_ & _ & _ & Hix & _). destruct (Hix iv items Esi) as [->|Hm]; [reflexivity|].
      rewrite Er2 in Hm. now apply items_match_nil in Hm. }
    destruct iv; [eexists; split; [reflexivity|auto]|].
    cbn [open_idx_reader bind]. exists s2. split; [reflexivity|]. split; [assumption|]. split; [assumption|].
    exists V2, []. split; [assumption|]. rewrite Er2. split; reflexivity.
  - (* records: the index of the second stage is there, not empty, and is opened as it is *)
    destruct (Hh2 ltac:(discriminate)) as (iv & items & Hsi & Hm). rewrite Hsi.
    destruct items as [|it r]; [destruct Hm as [Ho _]; rewrite Er2 in Ho; discriminate|].
    pose proof (idx_reader_ok s2 iv (it :: r) Hi2 Hsi) as Hopen.
    exists s2. split; [destruct iv; rewrite Hopen; reflexivity|]. split; [assumption|]. split; [assumption|].
    exists iv, (it :: r). split; assumption.
Qed.

Lemma map_res_rel {A B} (f : A -> res B) (P : A -> Prop) (R : A -> B -> Prop) l l' :
  (forall x y, P x -> f x = Ok y -> R x y) -> Forall P l -> map_res f l = Ok l' -> Forall2 R l l'.
Proof.
  intros Hf HF. revert l'. induction HF as [|x l Hx HF IH]; intros l' E; cbn [map_res] in E.
  - injection E as <-. constructor.
  - destruct (f x) as [y|] eqn:Ey; [|discriminate]. destruct (map_res f l) as [ys|]; [|discriminate].
    injection E as <-. constructor; auto.
Qed.

Lemma map_last_app {A} (f : A -> res A) pre x : map_last f (pre ++ [x]) = do y <- f x; Ok (pre ++ [y]).
Proof.
  unfold map_last. rewrite rev_app_distr. cbn [rev app]. destruct (f x) as [y|e]; cbn [bind rev]; [|reflexivity].
  now rewrite rev_involutive.
Qed.

Lemma map_last_rel {A} (f : A -> res A) (P : A -> Prop) (R : A -> A -> Prop) l l' :
  (forall x, P x -> R x x) -> (forall x y, P x -> f x = Ok y -> R x y) ->
  Forall P l -> map_last f l = Ok l' -> Forall2 R l l'.
Proof.
  intros Hr Hf HF. destruct (exists_last_or_nil l) as [->|(pre & x & ->)].
  - intros E. injection E as <-. constructor.
  - rewrite map_last_app. apply Forall_app_last in HF. destruct HF as [Hpre Hx].
    destruct (f x) as [y|] eqn:Ey; [|discriminate]. intros E. injection E as <-.
    apply Forall2_app; [|constructor; auto]. apply Forall2_diag. revert Hpre. apply Forall_impl. exact Hr.
Qed.

Lemma map_last_last {A} (f : A -> res A) l l' y :
  map_last f l = Ok l' -> last_opt l' = Some y -> exists x, last_opt l = Some x /\ f x = Ok y.
Proof.
  destruct (exists_last_or_nil l) as [->|(pre & x & ->)]; [intros E; injection E as <-; discriminate|].
  rewrite map_last_app. destruct (f x) as [y'|] eqn:Ey; [|discriminate]. intros E. injection E as <-.
  rewrite !last_opt_app. intros E. injection E as <-. eauto.
Qed.

Lemma step_inv (f : seg -> res seg) (Q : seg -> seg -> Prop) :
  (forall s, seg_inv s -> exists s', f s = Ok s' /\ Q s s') -> forall s s', seg_inv s -> f s = Ok s' -> Q s s'.
Proof. intros Hf s s' Hs E. destruct (Hf s Hs) as (s2 & E2 & HQ). rewrite E in E2. now injection E2 as <-. Qed.

Lemma map_res_ok (f : seg -> res seg) l :
  Forall seg_inv l ->
  (forall s, seg_inv s -> exists s', f s = Ok s' /\ seg_inv s' /\ same_recs s s') ->
  exists l', map_res f l = Ok l' /\ Forall seg_inv l' /\ Forall2 same_recs l l'.
Proof.
  intros HF Hf. assert (Hl : exists l', map_res f l = Ok l').
  { induction HF as [|s r Hs HF [r' Er]]; [exists []; reflexivity|]. destruct (Hf s Hs) as (s' & Es & _).
    exists (s' :: r'). cbn [map_res]. now rewrite Es, Er. }
  destruct Hl as [l' E]. exists l'. split; [exact E|]. apply Forall2_conj_r.
  exact (map_res_rel f seg_inv _ l l' (step_inv f _ Hf) HF E).
Qed.

Lemma map_last_ok (f : seg -> res seg) l :
  Forall seg_inv l ->
  (forall s, seg_inv s -> exists s', f s = Ok s' /\ seg_inv s' /\ same_recs s s') ->
  exists l', map_last f l = Ok l' /\ Forall seg_inv l' /\ Forall2 same_recs l l'.
Proof.
  intros HF Hf. assert (Hl : exists l', map_last f l = Ok l').
  { destruct (exists_last_or_nil l) as [->|(pre & x & ->)]; [exists []; reflexivity|]. rewrite map_last_app.
    apply Forall_app_last in HF. destruct (Hf x (proj2 HF)) as (x' & Ex & _). rewrite Ex. eexists. reflexivity. }
  destruct Hl as [l' E]. exists l'. split; [exact E|]. apply Forall2_conj_r.
  apply (map_last_rel f seg_inv _ l l'); [|exact (step_inv f _ Hf)|exact HF|exact E].
  intros x Hx. split; [exact Hx|apply same_recs_refl].
Qed.

Lemma log_close_closed st : opened st = None -> log_close st = Err EClosed.
Proof. intros Ho. unfold log_close. now rewrite Ho. Qed.

Lemma log_close_eq st c :
  opened st = Some c -> log_close st = Ok (mkState (if lvirt st then [] else segs st) 0 None false).
Proof. intros Hc. unfold log_close. now rewrite Hc. Qed.

Lemma log_close_inv st st' : log_close st = Ok st' -> st' = mkState (if lvirt st then [] else segs st) 0 None false.
Proof.
  destruct (opened st) as [c|] eqn:Ho; [rewrite (log_close_eq st c Ho)|now rewrite (log_close_closed st Ho)].
  intros E. now injection E.
Qed.

Theorem log_close_ok st :
  Inv st -> exists st', log_close st = Ok st' /\ segs st' = segs st /\ opened st' = None /\ lvirt st' = false /\
                        DirInv (segs st') /\ abs_dir (segs st') = abs st.
Proof.
  intros (Hne & HF & Hch & Hv & c & Hc & _). rewrite (log_close_eq st c Hc), Hv.
  eexists. split; [reflexivity|]. cbn [segs opened lvirt]. repeat split; assumption.
Qed.

Definition closed_dir (st : lstate) : Prop := opened st = None /\ lvirt st = false /\ DirInv (segs st).

Lemma log_open_locked st c c0 : opened st = Some c -> log_open H st c0 = Err ELocked.
Proof. intros Hc. unfold log_open. now rewrite Hc. Qed.

Lemma log_open_virt st c0 :
  opened st = None -> segs st = [] -> cro c0 = true ->
  log_open H st c0 =
  Ok (mkState [mkSeg 0 (cnewver c0) [] (Some (cnewver c0, []))] 0 (Some (norm_cfg c0)) true).
Proof. intros Ho Es Hro. unfold log_open. rewrite Ho, Es. cbn [cro norm_cfg]. now rewrite Hro. Qed.

Lemma log_open_ro st c0 :
  opened st = None -> segs st <> [] -> cro c0 = true ->
  log_open H st c0 =
  do _ <- (if ccheck c0 || crecover c0 then dir_check H (cparams c0) st else Ok tt);
  Ok (mkState (segs st) 0 (Some (norm_cfg c0)) false).
Proof.
  intros Ho Hne Hro. unfold log_open. rewrite Ho. cbn [cro norm_cfg]. rewrite Hro.
  destruct (segs st); [congruence|reflexivity].
Qed.

Lemma log_open_rw_empty st c0 :
  opened st = None -> segs st = [] -> cro c0 = false ->
  log_open H st c0 =
  do w <- open_writer H (norm_cfg c0) (mkSeg 0 V1 [] None); Ok (mkState [w] 0 (Some (norm_cfg c0)) false).
Proof. intros Ho Es Hro. unfold log_open. rewrite Ho, Es. cbn [cro norm_cfg]. now rewrite Hro. Qed.

Definition open_rw_segs (c : cfg) (st : lstate) : res (list seg) :=
  do l1 <- (if crecover c then map_last (segment_recover H (cparams c)) (segs st)
            else if ccheck c then do _ <- dir_check H (cparams c) st; Ok (segs st)
            else Ok (segs st));
  do l2 <- (if ceager c then map_res (segment_migrate H (cparams c) (cnewver c) (cnewver c)) l1 else Ok l1);
  map_last (open_writer H c) l2.

Lemma log_open_rw st c0 :
  opened st = None -> segs st <> [] -> cro c0 = false ->
  log_open H st c0 = do l <- open_rw_segs (norm_cfg c0) st; Ok (mkState l 0 (Some (norm_cfg c0)) false).
Proof.
  intros Ho Hne Hro. unfold log_open, open_rw_segs. rewrite Ho. cbn [cro norm_cfg]. rewrite Hro.
  destruct (segs st) as [|s0 r0] eqn:Es; [congruence|]. rewrite <- Es.
  destruct (if crecover _ then _ else _) as [l1|]; [|reflexivity]. cbn [bind].
  destruct (if ceager _ then _ else _) as [l2|]; reflexivity.
Qed.

Lemma log_open_handle st c0 st' : log_open H st c0 = Ok st' -> opened st' = Some (norm_cfg c0) /\ wcarry st' = 0.
Proof.
  destruct (opened st) as [c|] eqn:Ho; [now rewrite (log_open_locked st c c0 Ho)|].
  destruct (cro c0) eqn:Hro; destruct (segs st) as [|s0 r0] eqn:Es.
  - rewrite (log_open_virt st c0 Ho Es Hro). intros E. now injection E as <-.
  - rewrite (log_open_ro st c0 Ho) by (rewrite ?Es; congruence). destruct (if ccheck c0 || crecover c0 then _ else _); [|discriminate].
    intros E. now injection E as <-.
  - rewrite (log_open_rw_empty st c0 Ho Es Hro). destruct (open_writer _ _ _); [|discriminate]. intros E. now injection E as <-.
  - rewrite (log_open_rw st c0 Ho) by (rewrite ?Es; congruence). destruct (open_rw_segs _ _); [|discriminate].
    intros E. now injection E as <-.
Qed.

Lemma open_rw_segs_rel (P Q : seg -> Prop) (R : seg -> seg -> Prop) c st l :
  (forall s, R s s) -> (forall a b d, R a b -> R b d -> R a d) ->
  (forall s s', P s -> segment_recover H (cparams c) s = Ok s' -> P s' /\ R s s') ->
  (forall s s', P s -> segment_migrate H (cparams c) (cnewver c) (cnewver c) s = Ok s' -> P s' /\ R s s') ->
  (forall s s', P s -> open_writer H c s = Ok s' -> (P s' /\ R s s') /\ Q s') ->
  Forall P (segs st) -> open_rw_segs c st = Ok l ->
  Forall P l /\ Forall2 R (segs st) l /\ (forall hd, last_opt l = Some hd -> Q hd).
Proof.
  intros Rrefl Rtrans Hrec Hmig Hwr HP. unfold open_rw_segs.
  assert (Hdiag : forall x, P x -> P x /\ R x x) by auto.
  destruct (if crecover c then _ else _) as [l1|] eqn:E1; [|discriminate]. cbn [bind].
  assert (H1 : Forall P l1 /\ Forall2 R (segs st) l1).
  { apply Forall2_conj_r. destruct (crecover c); [exact (map_last_rel _ P _ _ _ Hdiag Hrec HP E1)|].
    assert (l1 = segs st) as -> by (destruct (ccheck c); [destruct (dir_check _ _ _); [|discriminate]|]; now injection E1).
    apply Forall2_diag. revert HP. apply Forall_impl. exact Hdiag. }
  destruct H1 as [HP1 HR1].
  destruct (if ceager c then _ else _) as [l2|] eqn:E2; [|discriminate]. cbn [bind].
  assert (H2 : Forall P l2 /\ Forall2 R l1 l2).
  { apply Forall2_conj_r. destruct (ceager c); [exact (map_res_rel _ P _ _ _ Hmig HP1 E2)|]. injection E2 as <-.
    apply Forall2_diag. revert HP1. apply Forall_impl. exact Hdiag. }
  destruct H2 as [HP2 HR2]. intros E3.
  destruct (Forall2_conj_r P R l2 l) as [HP3 HR3].
  { apply (map_last_rel _ P _ _ _ Hdiag (fun s s' Hs E => proj1 (Hwr s s' Hs E)) HP2 E3). }
  split; [exact HP3|]. split; [exact (Forall2_trans R Rtrans _ _ _ (Forall2_trans R Rtrans _ _ _ HR1 HR2) HR3)|].
  intros hd Ehd. destruct (map_last_last _ _ _ _ E3 Ehd) as (x & Ex & Ew).
  apply (Hwr x hd); [|exact Ew]. rewrite Forall_forall in HP2. apply HP2. now apply last_opt_in.
Qed.

(* Open of a closed, well-formed directory, in every mode: if it succeeds the handle satisfies Inv and shows
   exactly the messages and NextOffset the directory held *)
Theorem log_open_ok st c0 :
  closed_dir st -> segs st <> [] ->
  forall st', log_open H st c0 = Ok st' -> Inv st' /\ abs st' = abs_dir (segs st).
Proof.
  intros (Ho & Hv & HF & Hch) Hne st'. destruct (cro c0) eqn:Hro.
  - rewrite (log_open_ro st c0 Ho Hne Hro). destruct (if ccheck c0 || crecover c0 then _ else _); [|discriminate].
    cbn [bind]. intros E. injection E as <-. split; [|reflexivity].
    split; [exact Hne|]. split; [exact HF|]. split; [exact Hch|]. split; [reflexivity|].
    exists (norm_cfg c0). split; [reflexivity|]. cbn [cro norm_cfg]. congruence.
  - rewrite (log_open_rw st c0 Ho Hne Hro). destruct (open_rw_segs _ _) as [l|] eqn:E; [|discriminate].
    cbn [bind]. intros E'. injection E' as <-.
    destruct (open_rw_segs_rel seg_inv head_inv same_recs (norm_cfg c0) st l same_recs_refl same_recs_trans) as (HF' & HR & Hhd).
    + apply step_inv, recover_step_ok.
    + apply step_inv, migrate_step_ok.
    + intros s s' Hs Es. destruct (step_inv _ _ (open_writer_ok (norm_cfg c0)) s s' Hs Es) as (A & B & C). auto.
    + exact HF.
    + exact E.
    + destruct (exists_last_or_nil l) as [->|(pre & hd & ->)]; [inversion HR; congruence|].
      split; [|exact (abs_dir_recs _ _ HR)].
      apply Inv_snoc; [exact HF'|exact (chain_ok_recs _ _ HR Hch)|]. intros _. apply Hhd, last_opt_app.
Qed.

Lemma seg_inv_fresh : seg_inv (mkSeg 0 V1 [] None).
Proof. apply seg_inv_no_recs; [apply Z.le_refl|discriminate]. Qed.

Theorem log_open_fresh st c0 :
  opened st = None -> segs st = [] -> cro c0 = false ->
  exists st', log_open H st c0 = Ok st' /\ Inv st' /\ abs st' = empty_log.
Proof.
  intros Ho Hs Hro. rewrite (log_open_rw_empty st c0 Ho Hs Hro).
  destruct (open_writer_ok (norm_cfg c0) _ seg_inv_fresh) as (w & -> & Hiw & (Hr & Hb) & Hh). cbn [bind].
  eexists. split; [reflexivity|]. split.
  - apply (Inv_snoc []); [constructor; [exact Hiw|constructor]|exact (conj I I)|intros _; exact Hh].
  - unfold abs, wnext, all_recs, recs_next, empty_log. cbn. now rewrite Hr, Hb.
Qed.

Lemma seg_inv_no_index s : seg_inv s -> seg_inv (set_idx s None).
Proof. intros Hi. apply (seg_inv_recs s); [assumption|split; reflexivity|]. intros iv items E. discriminate. Qed.

Lemma rm_index_recs l : forall i which all, Forall2 same_recs l (rm_index_at l i which all).
Proof.
  induction l as [|s r IH]; intros i which all; cbn [rm_index_at]; constructor; [|apply IH].
  destruct (all || zmem i which); split; reflexivity.
Qed.

Theorem rm_index_ok l i which all : DirInv l -> DirInv (rm_index_at l i which all) /\ abs_dir (rm_index_at l i which all) = abs_dir l.
Proof.
  intros HD. split; [|apply abs_dir_recs, rm_index_recs].
  apply (dirinv_recs l); [|apply rm_index_recs|assumption].
  destruct HD as [HF _]. revert i. induction HF as [|s r Hs HF IH]; intros i; cbn [rm_index_at]; constructor; [|apply IH].
  destruct (all || zmem i which); [apply seg_inv_no_index|]; assumption.
Qed.

Lemma segment_migrate_ver p v s s' : segment_migrate H p v v s = Ok s' -> sver s' = v.
Proof.
  unfold segment_migrate. destruct (open_log_reader s) as [v0|] eqn:Ev; [|discriminate]. cbn [bind].
  apply open_log_reader_ver in Ev. subst v0.
  destruct (ver_eqb (sver s) v) eqn:E; intros E'; injection E' as <-; [|reflexivity].
  destruct (sver s), v; (reflexivity || discriminate).
Qed.

Theorem dir_migrate_ok p v st :
  DirInv (segs st) ->
  exists st', dir_migrate H p v st = Ok st' /\ DirInv (segs st') /\ abs_dir (segs st') = abs_dir (segs st) /\
              Forall (fun s => sver s = v) (segs st') /\ opened st' = opened st /\ lvirt st' = lvirt st.
Proof.
  intros HD. pose proof HD as [HF _]. unfold dir_migrate.
  destruct (map_res_ok (segment_migrate H p v v) (segs st) HF (migrate_step_ok p v)) as (l' & E & HF' & H2).
  rewrite E. cbn [bind]. eexists. split; [reflexivity|]. cbn. split; [apply (dirinv_recs (segs st)); assumption|].
  split; [apply abs_dir_recs; assumption|]. split; [|split; reflexivity].
  apply (Forall2_Forall_r _ (segs st)), (map_res_rel _ seg_inv _ _ _ (fun s s' _ => segment_migrate_ver p v s s') HF E).
Qed.

Theorem dir_recover_ok p st :
  DirInv (segs st) ->
  exists st', dir_recover H p st = Ok st' /\ DirInv (segs st') /\ abs_dir (segs st') = abs_dir (segs st) /\
              opened st' = opened st /\ lvirt st' = lvirt st.
Proof.
  intros HD. pose proof HD as [HF _]. unfold dir_recover.
  destruct (map_last_ok (segment_recover H p) (segs st) HF (recover_step_ok p)) as (l' & E & HF' & H2).
  rewrite E. cbn [bind]. eexists. split; [reflexivity|]. cbn. split; [apply (dirinv_recs (segs st)); assumption|].
  split; [apply abs_dir_recs; assumption|split; reflexivity].
Qed.

(* a property of a segment that maintenance cannot break: the clauses are what Recover, Migrate, openWriter and index
   removal do to a segment, and the segment a read-write Open of an empty directory starts from *)
Definition stable (p : params) (Q : seg -> Prop) : Prop :=
  (forall s, Q s -> Q (set_idx s None)) /\
  (forall s v, Q s -> Q (set_idx s (Some (v, [])))) /\
  (forall s v iv, Q s -> Q (mkSeg (sbase s) v (srecs s) (Some (iv, derive H p v (srecs s))))) /\
  (forall s v, Q s -> srecs s = [] -> Q (mkSeg (sbase s) v (srecs s) (sidx s))) /\
  Q (mkSeg 0 V1 [] None).

Lemma segment_recover_stable p Q s s' : stable p Q -> Q s -> segment_recover H p s = Ok s' -> Q s'.
Proof.
  intros (Hnone & _ & Hderive & _) Hq. unfold segment_recover.
  destruct (open_log_reader s) as [v|] eqn:Ev; [|discriminate]. apply open_log_reader_ver in Ev. subst v. cbn [bind].
  destruct (sidx s) as [ix|]; [|intros E; injection E as <-; exact Hq].
  destruct (open_idx_reader s ix) as [items|]; [|intros E; injection E as <-; exact (Hnone s Hq)].
  destruct (list_eqb item_eqb items (derive H p (sver s) (srecs s))); intros E; injection E as <-; [exact Hq|].
  exact (Hderive s (sver s) (fst ix) Hq).
Qed.

Lemma segment_migrate_stable p Q v s s' : stable p Q -> Q s -> segment_migrate H p v v s = Ok s' -> Q s'.
Proof.
  intros (_ & _ & Hderive & _) Hq. unfold segment_migrate. destruct (open_log_reader s) as [v0|]; [|discriminate]. cbn [bind].
  destruct (ver_eqb v0 v); intros E; injection E as <-; [exact Hq|exact (Hderive s v v Hq)].
Qed.

Lemma ensure_index_stable p Q newv s s' items : stable p Q -> Q s -> ensure_index H p newv s = Ok (s', items) -> Q s'.
Proof.
  intros (_ & _ & Hderive & _) Hq. unfold ensure_index. destruct (needs_reindex s).
  - unfold reindex. destruct (open_log_reader s) as [v|] eqn:Ev; [|discriminate]. apply open_log_reader_ver in Ev. subst v.
    cbn [bind]. intros E. injection E as <- _. exact (Hderive s (sver s) newv Hq).
  - destruct (sidx s) as [ix|]; [|discriminate]. destruct (open_idx_reader s ix); [|discriminate]. cbn [bind].
    intros E. injection E as <- _. exact Hq.
Qed.

Lemma open_writer_stable p Q c s s' : stable p Q -> cparams c = p -> Q s -> open_writer H c s = Ok s' -> Q s'.
Proof.
  intros HQ <- Hq. pose proof HQ as (_ & Hempty & _ & Hver & _). unfold open_writer.
  destruct (if seg_log_size s =? 0 then _ else _) as [s1|] eqn:E1; [|discriminate]. cbn [bind].
  assert (Q1 : Q s1).
  { destruct (seg_log_size s =? 0) eqn:E0.
    - injection E1 as <-. apply Hver; [exact Hq|]. apply (log_size_small (sver s)). unfold seg_log_size in E0. lia.
    - destruct (open_log_reader s); [|discriminate]. injection E1 as <-. exact Hq. }
  destruct (if 8 <? seg_log_size s1 then _ else _) as [s2|] eqn:E2; [|discriminate]. cbn [bind].
  assert (Q2 : Q s2).
  { destruct (8 <? seg_log_size s1); [|injection E2 as <-; exact Q1].
    destruct (ensure_index H (cparams c) (cnewver c) s1) as [[sa its]|] eqn:Ee; [|discriminate]. injection E2 as <-.
    exact (ensure_index_stable _ Q _ _ _ _ HQ Q1 Ee). }
  destruct (sidx s2) as [[iv items]|]; [|intros E; injection E as <-; exact (Hempty s2 _ Q2)].
  destruct iv, items; try (intros E; injection E as <-; exact (Hempty s2 _ Q2));
    (destruct (open_idx_reader s2 _); [|discriminate]); cbn [bind]; intros E; injection E as <-; exact Q2.
Qed.

Theorem log_open_stable p Q st c st' :
  stable p Q -> cparams c = p -> Forall Q (segs st) -> log_open H st c = Ok st' -> Forall Q (segs st').
Proof.
  intros HQ <- HX. pose proof HQ as (_ & Hempty & _ & Hver & Hfresh).
  destruct (opened st) as [c1|] eqn:Ho; [now rewrite (log_open_locked st c1 c Ho)|].
  destruct (cro c) eqn:Hro; destruct (segs st) as [|s0 r0] eqn:Es.
  - rewrite (log_open_virt st c Ho Es Hro). intros E. injection E as <-. constructor; [|constructor].
    exact (Hempty (mkSeg 0 (cnewver c) [] None) _ (Hver (mkSeg 0 V1 [] None) _ Hfresh eq_refl)).
  - rewrite (log_open_ro st c Ho) by (rewrite ?Es; congruence).
    destruct (if ccheck c || crecover c then _ else _); [|discriminate]. intros E. injection E as <-. cbn [segs]. now rewrite Es.
  - rewrite (log_open_rw_empty st c Ho Es Hro). destruct (open_writer H _ _) as [w|] eqn:Ew; [|discriminate].
    intros E. injection E as <-. constructor; [|constructor]. exact (open_writer_stable _ Q _ _ w HQ eq_refl Hfresh Ew).
  - rewrite (log_open_rw st c Ho) by (rewrite ?Es; congruence). destruct (open_rw_segs _ _) as [l|] eqn:El; [|discriminate].
    intros E. injection E as <-. rewrite <- Es in HX.
    refine (proj1 (open_rw_segs_rel Q (fun _ => True) (fun _ _ => True) (norm_cfg c) st l (fun _ => I) (fun _ _ _ _ _ => I) _ _ _ HX El)).
    + intros s s' Hs Er. exact (conj (segment_recover_stable _ Q s s' HQ Hs Er) I).
    + intros s s' Hs Em. exact (conj (segment_migrate_stable _ Q _ s s' HQ Hs Em) I).
    + intros s s' Hs Ew. exact (conj (conj (open_writer_stable _ Q _ s s' HQ eq_refl Hs Ew) I) I).
Qed.

Theorem rm_index_stable p Q l i which all : stable p Q -> Forall Q l -> Forall Q (rm_index_at l i which all).
Proof.
  intros (Hnone & _) HX. revert i. induction HX as [|s r Hs HX IH]; intros i; cbn [rm_index_at]; constructor; [|apply IH].
  destruct (all || zmem i which); [exact (Hnone s Hs)|exact Hs].
Qed.

Lemma dir_migrate_segs p v st st' :
  dir_migrate H p v st = Ok st' -> exists l, map_res (segment_migrate H p v v) (segs st) = Ok l /\ st' = set_segs st l.
Proof. unfold dir_migrate. destruct (map_res _ _) as [l|]; [|discriminate]. intros E. injection E as <-. exists l. split; reflexivity. Qed.

Lemma dir_recover_segs p st st' :
  dir_recover H p st = Ok st' -> exists l, map_last (segment_recover H p) (segs st) = Ok l /\ st' = set_segs st l.
Proof. unfold dir_recover. destruct (map_last _ _) as [l|]; [|discriminate]. intros E. injection E as <-. exists l. split; reflexivity. Qed.

Theorem dir_migrate_stable p Q v st st' :
  stable p Q -> Forall Q (segs st) -> dir_migrate H p v st = Ok st' -> Forall Q (segs st').
Proof.
  intros HQ HX E. destruct (dir_migrate_segs p v st st' E) as (l & El & ->).
  exact (Forall2_Forall_r Q _ l (map_res_rel _ Q _ _ l (fun s s' => segment_migrate_stable p Q v s s' HQ) HX El)).
Qed.

Theorem dir_recover_stable p Q st st' :
  stable p Q -> Forall Q (segs st) -> dir_recover H p st = Ok st' -> Forall Q (segs st').
Proof.
  intros HQ HX E. destruct (dir_recover_segs p st st' E) as (l & El & ->).
  exact (Forall2_Forall_r Q _ l (map_last_rel _ Q _ _ l (fun s Hs => Hs) (fun s s' => segment_recover_stable p Q s s' HQ) HX El)).
Qed.

End OpenProofs.

(* a read-only Open - with or without Check / Recover - changes no file: the directory is exactly as before
   (Recover on a read-only handle only checks) *)
Theorem log_open_readonly_keeps_dir (H : bytes -> Z) st c0 st' :
  cro c0 = true -> segs st <> [] -> log_open H st c0 = Ok st' -> segs st' = segs st.
Proof.
  intros Hro Hne. destruct (opened st) as [c|] eqn:Ho; [now rewrite (log_open_locked H st c c0 Ho)|].
  rewrite (log_open_ro H st c0 Ho Hne Hro). destruct (if ccheck c0 || crecover c0 then _ else _); [|discriminate].
  cbn [bind]. intros E. injection E as <-. reflexivity.
Qed.
