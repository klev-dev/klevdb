(* BackupProofs.v — C20: a backup into an empty directory, or repeated into the same directory while the source
   has only been appended to, is the source directory itself: it passes Check and opens to the same log. *)
From KV Require Import Base Model Backup ListAux LogInv PublishProofs OpenProofs ReadsPreserve.
From Coq Require Import ZifyBool ZifyNat.

Section BackupProofs.
Variable H : bytes -> Z.

Lemma insert_sorted s l : (forall x, In x l -> sbase s < sbase x) -> insert_seg s l = s :: l.
Proof. destruct l as [|x r]; [reflexivity|]. intros Hlt. cbn. pose proof (Hlt x (or_introl eq_refl)). destruct (sbase s <=? sbase x) eqn:E; [reflexivity|lia]. Qed.

Lemma sort_chain l : chain_ok l -> sort_segs l = l.
Proof.
  induction l as [|s r IH]; intros Hc; [reflexivity|]. unfold sort_segs in *. cbn [fold_right].
  rewrite (IH (chain_ok_tail _ _ Hc)). apply insert_sorted. intros x Hx. exact (chain_base_lt _ _ _ Hc Hx).
Qed.

(* every file name of the target also exists in the source: the source has only been appended to since *)
Definition covered (old src : list seg) : Prop := forall o, In o old -> exists n, In n src /\ sbase n = sbase o.

Lemma covered_refl a : covered a a.
Proof. intros o Ho. exists o. split; [exact Ho|reflexivity]. Qed.

Lemma covered_trans a b c : covered a b -> covered b c -> covered a c.
Proof. intros Hab Hbc o Ho. destruct (Hab o Ho) as (n & Hn & E1). destruct (Hbc n Hn) as (m & Hm & E2). exists m. split; [exact Hm|congruence]. Qed.

Theorem backup_is_source old src :
  chain_ok src -> covered old src -> backup_dir old src = src.
Proof.
  intros Hc Hcov. unfold backup_dir.
  assert (Hnil : filter (fun o => negb (has_base (sbase o) src)) old = []).
  { apply filter_all_false. intros o Ho. destruct (Hcov o Ho) as (n & Hn & Hb). apply negb_false_iff.
    unfold has_base. apply existsb_exists. exists n. split; [exact Hn|lia]. }
  rewrite Hnil. now apply sort_chain.
Qed.

Corollary backup_into_empty src : chain_ok src -> backup_dir [] src = src.
Proof. intros Hc. apply backup_is_source; [exact Hc|]. intros o []. Qed.

(* the backup of an open log: it opens, in any mode, to the same live messages and NextOffset as the source had
   at the time of the call *)
Theorem backup_opens_to_source st old dst c0 st' :
  Inv st -> covered old (segs st) -> do_backup old (segs st) = Ok dst ->
  log_open H (mkState dst 0 None false) c0 = Ok st' ->
  dst = segs st /\ Inv st' /\ abs st' = abs st.
Proof.
  intros HI Hcov Hb Ho. pose proof HI as (Hne & HF & Hch & _).
  unfold do_backup in Hb. destruct (backup_check (segs st)); [|discriminate]. cbn [bind] in Hb. injection Hb as <-.
  rewrite (backup_is_source old (segs st) Hch Hcov) in *. split; [reflexivity|].
  assert (Hcd : closed_dir (mkState (segs st) 0 None false)) by (split; [reflexivity|split; [reflexivity|split; assumption]]).
  destruct (log_open_ok H _ c0 Hcd Hne st' Ho) as (I' & A'). split; [exact I'|]. rewrite A'. reflexivity.
Qed.

Lemma covered_bases old src : incl (map sbase old) (map sbase src) -> covered old src.
Proof.
  intros Hi o Ho. destruct (proj1 (in_map_iff sbase src (sbase o)) (Hi _ (in_map sbase old o Ho))) as (n & E & Hn). now exists n.
Qed.

(* appending keeps every file name: Publish (with or without rollover) only extends the list of bases *)
Theorem publish_keeps_names st ms st2 n :
  log_publish H st ms = Ok (st2, n) -> covered (segs st) (segs st2).
Proof.
  intros E. destruct (PublishProofs.log_publish_inv H st ms st2 n E) as (c & pre & hd & Hc & Hro & Es & Hsz).
  pose proof (log_publish_eq H st c ms pre hd Hc Hro Es Hsz) as E'. cbv zeta in E'. rewrite E in E'. injection E' as -> _.
  apply covered_bases. cbn [segs]. rewrite Es. destruct (needs_rollover c hd); rewrite !map_app; [apply incl_appl|]; apply incl_refl.
Qed.

(* the source is unchanged by the call: Backup only triggers the lazy index rebuild *)
Theorem backup_leaves_source st st1 r :
  Inv st -> log_stat H st = Ok (st1, r) -> Inv st1 /\ abs st1 = abs st /\ opened st1 = opened st.
Proof. apply log_stat_preserves. Qed.

End BackupProofs.

(* the skip rule of the copy (a file of the target whose size and mtime match is not copied again): on files that
   have only been appended to, equal size means equal content *)
Lemma skip_rule_safe {A} (old new tl : list A) : new = old ++ tl -> length old = length new -> old = new.
Proof.
  intros -> Hl. rewrite app_length in Hl. destruct tl; [now rewrite app_nil_r|]. cbn in Hl. lia.
Qed.
