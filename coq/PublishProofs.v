(* C02 and the publish half of C01 on the model: Publish
   assigns exactly the offsets NextOffset .. NextOffset+n-1, returns
   NextOffset+n, appends exactly the given messages to the abstract log and
   preserves the invariant, with or without rollover. *)
From KV Require Import Base Model ListAux SearchProofs SegProofs ReaderProofs Spec LogInv GetProofs AbsFacts.
From Coq Require Import ZifyBool ZifyNat.

Section PublishProofs.
Variable H : bytes -> Z.

Lemma assign_offsets_length next ms : length (assign_offsets next ms) = length ms.
Proof. revert next; induction ms as [|m r IH]; intros next; cbn; [reflexivity|]. now rewrite IH. Qed.

Lemma assign_offsets_offs next ms : map moff (assign_offsets next ms) = seq_from next (length ms).
Proof. revert next; induction ms as [|m r IH]; intros next; cbn; [reflexivity|]. now rewrite IH. Qed.

Lemma seq_from_in z n x : In x (seq_from z n) -> z <= x < z + Z.of_nat n.
Proof.
  revert z; induction n as [|n IH]; intros z Hin; [contradiction|]. cbn in Hin.
  destruct Hin as [<-|Hin]; [lia|]. apply IH in Hin. lia.
Qed.

Lemma assign_offsets_range next ms m : In m (assign_offsets next ms) -> next <= moff m < next + zlen ms.
Proof.
  intros Hin. apply (in_map moff) in Hin. rewrite assign_offsets_offs in Hin. apply seq_from_in in Hin.
  unfold zlen. lia.
Qed.

Lemma assign_offsets_inc next ms : inc (assign_offsets next ms).
Proof.
  revert next; induction ms as [|m r IH]; intros next; [exact I|]. cbn [assign_offsets inc].
  split; [|apply IH]. intros x Hx. apply assign_offsets_range in Hx. cbn [moff]. lia.
Qed.

Lemma last_opt_assign next ms ml : last_opt (assign_offsets next ms) = Some ml -> moff ml = next + zlen ms - 1.
Proof.
  revert next; induction ms as [|m r IH]; intros next E; [discriminate|]. rewrite zlen_cons.
  destruct r as [|m' r].
  - injection E as <-. cbn. lia.
  - cbn [assign_offsets] in E, IH. rewrite last_opt_cons_cons in E. apply IH in E. lia.
Qed.

Lemma spec_publish_assign a ms :
  spec_publish a ms = mkAlog (live a ++ assign_offsets (anext a) ms) (anext a + zlen ms).
Proof.
  unfold spec_publish. f_equal. f_equal. generalize (anext a). induction ms as [|m r IH]; intros z; [reflexivity|].
  cbn. f_equal. apply IH.
Qed.

Lemma chain_ok_replace pre s post s' :
  chain_ok (pre ++ s :: post) ->
  sbase s <= sbase s' ->
  (post <> [] -> srecs s' <> [] /\ forall m, In m (srecs s') -> In m (srecs s)) ->
  (forall q, In q post -> sbase s' < sbase q) ->
  chain_ok (pre ++ s' :: post).
Proof.
  induction pre as [|a pre IH]; intros Hc Hb Hsub Hpost.
  - cbn [app] in *. destruct post as [|q post'].
    + cbn. tauto.
    + cbn [chain_ok] in Hc |- *. destruct Hc as [(Hlt & Hoff & Hne) Ht]. split; [|exact Ht].
      destruct (Hsub ltac:(discriminate)) as [Hne' Hin]. split; [apply Hpost; left; reflexivity|]. split; [|exact Hne'].
      intros m Hm. apply Hoff. now apply Hin.
  - cbn [app] in *. destruct pre as [|b pre'].
    + cbn [app] in *. cbn [chain_ok] in Hc |- *. destruct Hc as [(Hlt & Hoff & Hne) Ht]. split.
      * split; [lia|]. split; [|exact Hne]. intros m Hm. specialize (Hoff m Hm). lia.
      * apply (IH Ht); assumption.
    + cbn [app] in *. cbn [chain_ok] in Hc |- *. destruct Hc as [Hh Ht]. split; [exact Hh|]. apply (IH Ht); assumption.
Qed.

Lemma chain_ok_snoc pre x y :
  chain_ok (pre ++ [x]) -> sbase x < sbase y -> (forall m, In m (srecs x) -> moff m < sbase y) ->
  srecs x <> [] -> chain_ok ((pre ++ [x]) ++ [y]).
Proof.
  induction pre as [|a pre IH]; intros Hc Hb Ho Hn.
  - cbn. tauto.
  - cbn [app] in *. destruct pre as [|b pre'].
    + cbn in *. tauto.
    + cbn [app] in *. cbn [chain_ok] in Hc |- *. destruct Hc as [Hh Ht]. split; [exact Hh|].
      apply IH; assumption.
Qed.

Lemma head_idx_next s : seg_inv s -> head_inv s -> idx_next s (head_items s) = recs_next s.
Proof.
  intros Hi (iv & items & Hsi & Hm). unfold head_items. rewrite Hsi. apply idx_next_recs.
  now apply seg_inv_seg_ok.
Qed.

Lemma seg_inv_no_recs b v ix :
  0 <= b -> (forall iv items, ix = Some (iv, items) -> items = []) -> seg_inv (mkSeg b v [] ix).
Proof.
  intros Hb Hix. split; [apply (inc_recs_sorted []); exact I|]. split; [intros m []|]. split; [exact I|].
  split; [|exact Hb]. intros iv items E. left. exact (Hix iv items E).
Qed.

Lemma new_head_inv c n : 0 <= n -> seg_inv (new_head c n).
Proof. intros Hn. apply seg_inv_no_recs; [exact Hn|]. intros iv items E. now injection E as _ <-. Qed.

Lemma new_head_head c n : head_inv (new_head c n).
Proof. exists (cnewver c), []. split; [reflexivity|]. split; reflexivity. Qed.

Lemma chain_snoc_new_head c pre x n :
  Forall seg_inv (pre ++ [x]) -> chain_ok (pre ++ [x]) -> srecs x <> [] -> recs_next x <= n ->
  Forall seg_inv ((pre ++ [x]) ++ [new_head c n]) /\ chain_ok ((pre ++ [x]) ++ [new_head c n]).
Proof.
  intros HF Hch Hne Hn. pose proof (proj2 (proj1 (Forall_app_last _ _ _) HF)) as Hx.
  pose proof (recs_next_nonneg x Hx). split; [apply Forall_app_last; split; [exact HF|apply new_head_inv; lia]|].
  assert (Hlt : forall m, In m (srecs x) -> moff m < n) by (intros m Hm; pose proof (recs_lt_next x m Hx Hm); lia).
  apply chain_ok_snoc; [exact Hch| |exact Hlt|exact Hne]. cbn [sbase new_head].
  assert (Hm0 : exists m0, In m0 (srecs x)) by (destruct (srecs x) as [|m0 r0]; [congruence|exists m0; now left]).
  destruct Hm0 as (m0 & Hm0). pose proof (seg_offsets_ge_base x m0 Hx Hm0). specialize (Hlt m0 Hm0). lia.
Qed.

Definition sizes_ok (ms : list msg) : Prop := existsb msg_too_big ms = false.

(* ts is the latest time in the index so far *)
Definition append_head (c : cfg) (hd : seg) (nxt : Z) (ms : list msg) (ts : Z) : seg :=
  mkSeg (sbase hd) (sver hd) (srecs hd ++ assign_offsets nxt ms)
        (Some (match sidx hd with Some (iv, _) => iv | None => cnewver c end,
               head_items hd ++
               derive_from H (cparams c) (sver hd) (seg_log_size hd) ts (assign_offsets nxt ms))).

Lemma log_publish_eq st c ms pre hd :
  opened st = Some c -> cro c = false -> segs st = pre ++ [hd] -> sizes_ok ms ->
  let nxt := idx_next hd (head_items hd) in
  let nt := next_time st hd in
  let roll := needs_rollover c hd in
  let hd2 := append_head c (if roll then new_head c nxt else hd) nxt ms nt in
  log_publish H st ms =
  Ok (mkState ((if roll then pre ++ [hd] else pre) ++ [hd2]) (if roll then nt else wcarry st) (opened st) (lvirt st),
      idx_next hd2 (head_items hd2)).
Proof.
  intros Hc Hro Es Hsz. unfold log_publish, head_seg. rewrite (get_cfg_opened st c Hc). cbn [bind].
  rewrite Hro, Es, last_opt_app. cbn [bind]. unfold sizes_ok in Hsz.
  destruct (needs_rollover c hd); rewrite Hsz; unfold set_segs; cbn [segs]; rewrite ?Es, replace_last; reflexivity.
Qed.

Lemma log_publish_inv st ms st' n :
  log_publish H st ms = Ok (st', n) ->
  exists c pre hd, opened st = Some c /\ cro c = false /\ segs st = pre ++ [hd] /\ sizes_ok ms.
Proof.
  intros E. destruct (bind_cfg _ _ _ E) as (c & Hc & Ec). destruct (cro c) eqn:Hro; [discriminate|].
  unfold head_seg in Ec. destruct (exists_last_or_nil (segs st)) as [Es|(pre & hd & Es)]; rewrite Es in Ec; [discriminate|].
  rewrite last_opt_app in Ec. cbn [bind] in Ec. exists c, pre, hd. unfold sizes_ok.
  destruct (existsb msg_too_big ms); [destruct (needs_rollover c hd); discriminate|auto].
Qed.

Lemma append_head_ok c hd ms ts :
  seg_inv hd -> head_inv hd ->
  seg_inv (append_head c hd (recs_next hd) ms ts) /\ head_inv (append_head c hd (recs_next hd) ms ts) /\
  recs_next (append_head c hd (recs_next hd) ms ts) = recs_next hd + zlen ms.
Proof.
  intros Hinv (iv0 & items0 & Hsi & Hm0). pose proof Hinv as (Hs & Hnn & Hfb & _ & Hb).
  pose proof (recs_next_nonneg hd Hinv) as Hn0.
  unfold append_head, head_items. rewrite Hsi.
  set (new := assign_offsets (recs_next hd) ms).
  set (items := items0 ++ derive_from H (cparams c) (sver hd) (seg_log_size hd) ts new).
  assert (Hm : items_match (sver hd) (hdr_size (sver hd)) (srecs hd ++ new) items)
    by (apply items_match_app; [exact Hm0|apply derive_from_match]).
  split; [|split].
  - split; [|split; [|split; [|split]]]; cbn [srecs sbase sver sidx].
    + apply inc_recs_sorted, inc_app; [now apply recs_sorted_inc|apply assign_offsets_inc|].
      intros x y Hx Hy. pose proof (recs_lt_next hd x Hinv Hx). apply assign_offsets_range in Hy. lia.
    + intros m Hin. apply in_app_or in Hin. destruct Hin as [Hin|Hin]; [now apply Hnn|].
      apply assign_offsets_range in Hin. lia.
    + (* an empty head takes its first offset from its base: recs_next of an empty segment *)
      unfold first_is_base in *. cbn [srecs sbase]. unfold new, recs_next.
      destruct (srecs hd); [|exact Hfb]. destruct ms; [exact I|reflexivity].
    + intros iv its E. injection E as <- <-. right. exact Hm.
    + exact Hb.
  - exists iv0, items. split; [reflexivity|exact Hm].
  - unfold recs_next at 1. cbn [srecs sbase]. destruct (last_opt new) as [ml|] eqn:El.
    + rewrite last_opt_app2 by (intro E; rewrite E in El; discriminate). rewrite El.
      apply last_opt_assign in El. lia.
    + apply last_opt_none in El. rewrite El, app_nil_r. fold (recs_next hd).
      unfold new in El. destruct ms; [|discriminate]. unfold zlen. cbn [length]. lia.
Qed.

Theorem log_publish_correct st ms :
  Inv st -> (exists c, opened st = Some c /\ cro c = false) -> sizes_ok ms ->
  exists st2, log_publish H st ms = Ok (st2, anext (abs st) + zlen ms) /\
              Inv st2 /\ abs st2 = spec_publish (abs st) ms /\ opened st2 = opened st.
Proof.
  intros HInv (c & Hc & Hro) Hsz. pose proof (Inv_lvirt st HInv) as Hv.
  destruct (Inv_writer st c HInv Hc Hro) as (pre & hd & Es & HF & Hch & Hhd).
  pose proof (proj2 (proj1 (Forall_app_last _ _ _) HF)) as Hhdi.
  pose proof (log_publish_eq st c ms pre hd Hc Hro Es Hsz) as E. cbn zeta in E.
  rewrite (head_idx_next hd Hhdi Hhd), Hc, Hv in E. rewrite E, (abs_snoc st pre hd Es). clear E.
  (* the list the batch is appended to: after a rollover it ends in the new, empty head *)
  set (pre1 := if needs_rollover c hd then pre ++ [hd] else pre).
  set (hd1 := if needs_rollover c hd then new_head c (recs_next hd) else hd).
  assert (H1 : Forall seg_inv (pre1 ++ [hd1]) /\ chain_ok (pre1 ++ [hd1]) /\ head_inv hd1 /\
               recs_next hd1 = recs_next hd /\ all_recs (pre1 ++ [hd1]) = all_recs (pre ++ [hd])).
  { unfold pre1, hd1. destruct (needs_rollover c hd) eqn:Eroll; [|auto].
    assert (Hne : srecs hd <> []).
    { unfold needs_rollover in Eroll. destruct (srecs hd); [rewrite andb_false_r in Eroll|]; discriminate. }
    destruct (chain_snoc_new_head c pre hd (recs_next hd) HF Hch Hne (Z.le_refl _)) as [HF1 Hch1].
    split; [exact HF1|]. split; [exact Hch1|]. split; [apply new_head_head|]. split; [reflexivity|].
    apply all_recs_nil_head. reflexivity. }
  destruct H1 as (HF1 & Hch1 & Hh1 & Hn1 & Ha1).
  apply Forall_app_last in HF1. destruct HF1 as [HFpre1 Hi1].
  destruct (append_head_ok c hd1 ms (next_time st hd) Hi1 Hh1) as (Hi2 & Hh2 & Hn2).
  rewrite Hn1 in Hi2, Hh2, Hn2.
  set (hd2 := append_head c hd1 (recs_next hd) ms (next_time st hd)) in *.
  eexists. split; [rewrite (head_idx_next hd2 Hi2 Hh2), Hn2; reflexivity|].
  split; [|split; [|symmetry; exact Hc]].
  - apply Inv_snoc; [apply Forall_app_last; split; assumption| |intros _; exact Hh2].
    apply (chain_ok_replace pre1 hd1 []); [exact Hch1|apply Z.le_refl|congruence|intros q []].
  - rewrite spec_publish_assign. cbn [live anext].
    erewrite abs_snoc by reflexivity. rewrite Hn2. f_equal.
    rewrite <- Ha1, !all_recs_app, <- app_assoc. f_equal. unfold all_recs. cbn. now rewrite !app_nil_r.
Qed.

Corollary log_publish_ok st ms st' n :
  Inv st -> log_publish H st ms = Ok (st', n) -> Inv st' /\ abs st' = spec_publish (abs st) ms /\ opened st' = opened st.
Proof.
  intros HI E. destruct (log_publish_inv st ms st' n E) as (c & pre & hd & Hc & Hro & _ & Hsz).
  destruct (log_publish_correct st ms HI (ex_intro _ c (conj Hc Hro)) Hsz) as (st2 & E2 & R2).
  rewrite E in E2. injection E2 as <- _. exact R2.
Qed.

End PublishProofs.
