(* ConsumeProofs.v — C03 on the model: log.Consume satisfies the Spec.v
   checker in every state that satisfies Inv, for every offset and every maxCount >= 1.
   log_consume_exact says what a call returns in terms of the live messages. *)
From KV Require Import Base Model ListAux SearchProofs ReaderProofs Spec SpecFacts LogInv AbsFacts.
From Coq Require Import ZifyBool ZifyNat.

Definition sel_spec (bs : list Z) (off r : Z) : Prop :=
  0 <= r < zlen bs /\
  (forall j c, r < j -> znth bs j = Some c -> off < c) /\
  (r = 0 \/ exists b, znth bs r = Some b /\ b <= off).

Lemma seg_consume_spec bs off :
  bs <> [] -> sorted_lt bs -> (forall b, In b bs -> 0 <= b) -> off <> OffsetNewest ->
  exists r, seg_consume bs off = Ok r /\ sel_spec bs off r.
Proof.
  intros Hne Hs Hnn Hnew. destruct bs as [|first rest]; [congruence|].
  destruct (znth_ends first rest) as (Hfirst & Hlast & Hlen). unfold seg_consume. lazy zeta.
  set (bs := first :: rest) in *.
  unfold OffsetOldest, OffsetNewest in *.
  assert (H0 : 0 <= first) by (apply Hnn; left; reflexivity).
  destruct (off =? -2) eqn:E1.
  { exists 0. split; [reflexivity|]. split; [lia|]. split; [|left; reflexivity].
    intros j c Hj Hc. apply znth_in in Hc. specialize (Hnn c Hc). lia. }
  destruct (off =? -1) eqn:E2; [lia|].
  destruct (off <=? first) eqn:E3.
  { exists 0. split; [reflexivity|]. split; [lia|]. split; [|left; reflexivity].
    intros j c Hj Hc. assert (first < c) by (apply (Hs 0 j); auto; reflexivity). lia. }
  destruct (last bs first <=? off) eqn:E4.
  { exists (zlen bs - 1). split; [reflexivity|]. split; [lia|]. split.
    - intros j c Hj Hc. apply znth_some in Hc. lia.
    - right. exists (last bs first). split; [assumption|lia]. }
  destruct (bsearch_seg_spec bs off first (last bs first) Hs Hfirst ltac:(lia) Hlast ltac:(lia))
    as (r & b & Hr & Hb & Hle & Hgt).
  exists r. split; [exact Hr|]. pose proof (znth_some _ _ _ Hb). split; [lia|]. split; [exact Hgt|].
  right. exists b. split; assumption.
Qed.

Lemma seg_consume_newest bs : bs <> [] -> seg_consume bs OffsetNewest = Ok (zlen bs - 1).
Proof. destruct bs; [congruence|]. intros _. reflexivity. Qed.

Section ConsumeProofs.
Variable H : bytes -> Z.

Lemma sel_split l off i :
  sel_spec (bases l) off i ->
  exists pre s post, l = pre ++ s :: post /\ zlen pre = i /\
    (pre = [] \/ sbase s <= off) /\ (forall s2, In s2 post -> off < sbase s2).
Proof.
  intros (Hir & Hafter & Hbefore). unfold bases in Hir. rewrite zlen_map in Hir.
  destruct (znth_in_range l i Hir) as [s Hs].
  destruct (znth_split _ _ _ Hs) as (pre & post & -> & Hpre).
  exists pre, s, post. split; [reflexivity|]. split; [exact Hpre|]. split.
  - destruct Hbefore as [->|(b & Hb & Hle)].
    + left. destruct pre; [reflexivity|]. rewrite zlen_cons in Hpre. pose proof (zlen_nonneg pre). lia.
    + right. rewrite znth_bases, Hs in Hb. injection Hb as <-. exact Hle.
  - intros s2 Hin. destruct (in_znth _ _ Hin) as [j Hj]. pose proof (znth_some _ _ _ Hj).
    apply (Hafter (i + 1 + j)); [lia|]. rewrite znth_bases, <- Hpre, znth_after, Hj by lia. reflexivity.
Qed.

Lemma consume_selects l off :
  l <> [] -> Forall seg_inv l -> chain_ok l -> off <> OffsetNewest ->
  exists pre s post, l = pre ++ s :: post /\ seg_consume (bases l) off = Ok (zlen pre) /\
    (pre = [] \/ sbase s <= off) /\ (forall s2, In s2 post -> off < sbase s2).
Proof.
  intros Hne HF Hch Hnew.
  destruct (seg_consume_spec (bases l) off) as (i & Hi & Hsel);
    [intro E; apply Hne, (map_eq_nil _ _ E)|apply bases_sorted; exact Hch|intro b; apply bases_nonneg; exact HF|exact Hnew|].
  destruct (sel_split l off i Hsel) as (pre & s & post & E & <- & Hb & Ha). exists pre, s, post. auto.
Qed.

Lemma all_recs_above post off :
  Forall seg_inv post -> (forall s2, In s2 post -> off < sbase s2) ->
  forall m, In m (all_recs post) -> off < moff m.
Proof.
  intros HF Hab m Hm. destruct (in_all_recs _ _ Hm) as (s2 & Hs2 & Hm2). rewrite Forall_forall in HF.
  pose proof (seg_offsets_ge_base s2 m (HF s2 Hs2) Hm2). specialize (Hab s2 Hs2). lia.
Qed.

Lemma from_off_sel pre s post off :
  Forall seg_inv (pre ++ s :: post) -> chain_ok (pre ++ s :: post) ->
  (pre = [] \/ sbase s <= off) -> (forall s2, In s2 post -> off < sbase s2) ->
  from_off (all_recs (pre ++ s :: post)) off = ge_filter off (srecs s) ++ all_recs post.
Proof.
  intros HF Hch Hbefore Hafter. apply Forall_app in HF. destruct HF as [_ HF].
  apply Forall_cons_iff in HF. destruct HF as [(_ & Hnn & _ & _ & Hb0) HFp].
  unfold from_off, ge_filter. destruct (off <? 0) eqn:E.
  - destruct Hbefore as [->|Hle]; [|lia]. cbn [app]. rewrite all_recs_cons. f_equal.
    symmetry. apply filter_all_true. intros x Hx. specialize (Hnn x Hx). lia.
  - rewrite all_recs_app, all_recs_cons, !filter_app.
    rewrite (filter_all_false _ (all_recs pre)).
    2:{ intros x Hx. pose proof (chain_pre_lt pre s post x Hch Hx). destruct Hbefore as [->|Hle]; [contradiction|lia]. }
    rewrite (filter_all_true _ (all_recs post)) by (intros x Hx; pose proof (all_recs_above post off HFp Hafter x Hx); lia).
    reflexivity.
Qed.

Definition obs_consume (r : res (lstate * (Z * list msg))) : obs (Z * list msg) :=
  match r with Ok (_, o) => OOk o | Err e => OErr (classify e) end.

Lemma wnext_app pre s : wnext (mkState (pre ++ [s]) 0 None false) = recs_next s.
Proof. exact (wnext_split (mkState (pre ++ [s]) 0 None false) pre s [] eq_refl). Qed.

(* reader.Consume on segment i, after any number of index loads *)
Lemma consume_at c st st1 i s hd off max :
  Inv st1 -> st_shape st st1 -> opened st = Some c -> znth (segs st) i = Some s ->
  1 <= max -> off <> OffsetNewest ->
  exists st2 s' items, with_index H c st1 i = Ok (st2, s', items) /\ Inv st2 /\ st_shape st st2 /\
    match ge_filter off (srecs s) with
    | [] => reader_consume s' items hd off max =
            if hd && (off <=? recs_next s) then Ok (recs_next s, [])
            else Err (match srecs s with [] => EIdxEmpty | _ => EAfterEnd end)
    | _ :: _ => exists ms rest m, ge_filter off (srecs s) = ms ++ rest /\ zlen ms <= max /\
                  last_opt ms = Some m /\ reader_consume s' items hd off max = Ok (moff m + 1, ms)
    end.
Proof.
  intros HI1 Hsh Hc Hs Hmax Hnew.
  destruct (with_index_read H c st st1 i s HI1 Hsh Hc Hs) as (st2 & s' & items & Hwi & HI2 & Hsh2 & Hok & Hss).
  exists st2, s', items. split; [exact Hwi|]. split; [exact HI2|]. split; [exact Hsh2|].
  pose proof (reader_consume_spec s' items hd off max Hok Hmax Hnew) as Hrc.
  rewrite (same_shape_recs_next _ _ Hss) in Hrc. destruct Hss as (Hr & _). rewrite Hr in Hrc.
  destruct (ge_filter off (srecs s)) as [|g0 gr]; [exact Hrc|].
  cbn zeta in Hrc. destruct Hrc as (m & Hl & Hrc).
  exists (firstn (Z.to_nat max) (g0 :: gr)), (skipn (Z.to_nat max) (g0 :: gr)), m.
  split; [symmetry; apply firstn_skipn|]. split; [|split; assumption].
  unfold zlen. pose proof (firstn_le_length (Z.to_nat max) (g0 :: gr)). lia.
Qed.

Lemma ge_filter_oldest s : seg_inv s -> ge_filter OffsetOldest (srecs s) = srecs s.
Proof.
  intros (_ & Hnn & _). apply filter_all_true. intros x Hx. specialize (Hnn x Hx). unfold OffsetOldest. lia.
Qed.

Lemma log_consume_newest st max :
  Inv st -> check_consume (abs st) OffsetNewest max (obs_consume (log_consume H st OffsetNewest max)) = true.
Proof.
  intros HInv. pose proof HInv as (Hne & HF & _ & _ & c & Hc & _).
  unfold log_consume, get_cfg. rewrite Hc. cbn [bind].
  rewrite seg_consume_newest by (intro E; apply Hne, (map_eq_nil _ _ E)). cbn [bind].
  unfold bases. rewrite zlen_map.
  destruct (@exists_last _ _ Hne) as (pre & hd & Esegs).
  assert (Hhd : znth (segs st) (zlen (segs st) - 1) = Some hd) by (rewrite <- last_opt_znth, Esegs; apply last_opt_app).
  destruct (with_index_read H c st st _ hd HInv (st_shape_refl st) Hc Hhd) as (st1 & s' & items & Hwi & _ & _ & Hok & Hss).
  rewrite Hwi. cbn [bind]. rewrite (reader_consume_newest s' items _ max Hok). cbn [obs_consume].
  rewrite (same_shape_recs_next _ _ Hss). change (recs_next hd) with (recs_next (last [] hd)).
  rewrite <- (wnext_split st pre hd [] Esegs). apply (check_consume_newest (abs st)), anext_nonneg, HInv.
Qed.

(* What a caller of Consume at a real offset observes. An error only when off is beyond NextOffset; no message
   only when nothing is live from off on, and then the returned offset is NextOffset; otherwise a batch of at
   most max messages that starts the live messages from off on, with the offset behind the batch. *)
Theorem log_consume_exact st off max :
  Inv st -> 1 <= max -> off <> OffsetNewest ->
  match obs_consume (log_consume H st off max) with
  | OErr cl => from_off (live (abs st)) off = [] /\ anext (abs st) < off /\ cl = CInvalidOffset
  | OOk (n, []) => from_off (live (abs st)) off = [] /\ off <= anext (abs st) /\ n = anext (abs st)
  | OOk (n, ms) => exists rest m, from_off (live (abs st)) off = ms ++ rest /\ zlen ms <= max /\
                                   last_opt ms = Some m /\ n = moff m + 1
  end.
Proof.
  intros HInv Hmax Hnew. pose proof HInv as (Hne & HF & Hch & _ & c & Hc & _).
  destruct (consume_selects (segs st) off Hne HF Hch Hnew) as (pre & s & post & Hsplit & Hi & Hbefore & Hafter).
  replace (from_off (live (abs st)) off) with (ge_filter off (srecs s) ++ all_recs post)
    by (symmetry; cbn [abs live]; rewrite Hsplit in HF, Hch |- *; now apply from_off_sel).
  cbn [abs anext]. rewrite (wnext_split st pre s post Hsplit).
  unfold log_consume, get_cfg. rewrite Hc. cbn [bind]. rewrite Hi. cbn [bind].
  destruct (is_last_split st pre s post Hsplit) as [-> ->].
  assert (Hs : znth (segs st) (zlen pre) = Some s) by (rewrite Hsplit; apply znth_mid).
  destruct (consume_at c st st (zlen pre) s (match post with [] => true | _ :: _ => false end) off max
              HInv (st_shape_refl st) Hc Hs Hmax Hnew) as (st1 & s' & items & -> & HI1 & Hsh1 & Hrc).
  cbn [bind]. clear HInv Hs.
  destruct (ge_filter off (srecs s)) as [|g0 gr].
  2:{ destruct Hrc as (ms & rest & m & Hg & Hle & Hl & ->). cbn [obs_consume].
      destruct ms as [|m0 mr]; [discriminate|]. exists (rest ++ all_recs post), m. rewrite Hg, app_assoc. auto. }
  cbn [app]. rewrite Hrc. cbn [andb]. clear Hrc. destruct post as [|s2 post'].
  - (* the head segment: caught up, or beyond the end *)
    cbn [last]. destruct (off <=? recs_next s) eqn:E; [cbn; split; [reflexivity|split; [lia|reflexivity]]|].
    destruct (srecs s); cbn; (split; [reflexivity|split; [lia|reflexivity]]).
  - (* a sealed segment with nothing from off on: Consume moves on to the start of the next segment *)
    assert (Hr : srecs s <> []).
    { apply (chain_nonhead_nonempty pre s (s2 :: post')); [rewrite <- Hsplit; exact Hch|discriminate]. }
    destruct (srecs s) as [|r0 rr]; [congruence|]. clear Hr.
    assert (Hsplit2 : segs st = (pre ++ [s]) ++ s2 :: post') by (rewrite <- app_assoc; exact Hsplit).
    replace (zlen pre + 1) with (zlen (pre ++ [s])) by (rewrite zlen_app; reflexivity).
    destruct (is_last_split st (pre ++ [s]) s2 post' Hsplit2) as [-> _].
    assert (Hs2 : znth (segs st) (zlen (pre ++ [s])) = Some s2) by (rewrite Hsplit2; apply znth_mid).
    assert (HI2 : seg_inv s2) by (eapply Forall_znth; eassumption).
    destruct (consume_at c st st1 (zlen (pre ++ [s])) s2 (match post' with [] => true | _ :: _ => false end)
                OffsetOldest max HI1 Hsh1 Hc Hs2 Hmax ltac:(discriminate)) as (st2 & s2' & items2 & -> & _ & _ & Hrc2).
    cbn [bind]. rewrite (ge_filter_oldest s2 HI2) in Hrc2. rewrite all_recs_cons.
    destruct (srecs s2) as [|q0 qr] eqn:Er2.
    + (* only the head segment can be empty: caught up *)
      assert (post' = []) as ->.
      { apply (chain_empty_last (pre ++ [s]) s2); [|exact Er2]. now rewrite <- Hsplit2. }
      cbn [last]. rewrite Hrc2. cbn [andb].
      specialize (Hafter s2 (or_introl eq_refl)).
      pose proof (recs_next_ge_base s2 HI2). pose proof (recs_next_nonneg s2 HI2).
      replace (OffsetOldest <=? recs_next s2) with true by (unfold OffsetOldest; lia).
      cbn. split; [reflexivity|split; [lia|reflexivity]].
    + destruct Hrc2 as (ms & rest & m & Hg & Hle & Hl & ->). cbn [bind obs_consume].
      destruct ms as [|m0 mr]; [discriminate|]. exists (rest ++ all_recs post'), m. rewrite Hg, app_assoc. auto.
Qed.

Theorem log_consume_correct st off max :
  Inv st -> 1 <= max ->
  check_consume (abs st) off max (obs_consume (log_consume H st off max)) = true.
Proof.
  intros HInv Hmax. destruct (Z.eq_dec off OffsetNewest) as [->|Hnew]; [now apply log_consume_newest|].
  pose proof (log_consume_exact st off max HInv Hmax Hnew) as Hx.
  destruct (obs_consume (log_consume H st off max)) as [[n [|m0 mr]]|cl].
  - destruct Hx as (Hfrom & Hle & ->). now apply check_consume_caught_up.
  - destruct Hx as (rest & m & Hfrom & Hlen & Hl & ->).
    apply (check_consume_nonempty _ off max _ _ m); try assumption; try reflexivity.
    + apply (from_off_le_next st off m0 HInv). rewrite Hfrom. left. reflexivity.
    + rewrite Hfrom. apply is_prefix_app.
  - destruct Hx as (_ & Hlt & ->). now apply check_consume_beyond.
Qed.

End ConsumeProofs.
