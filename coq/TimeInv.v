(* C10: in histories whose publish times never decrease (and are not negative), the index timestamps
   of every index file equal the message times (TS) in every reachable state: the hypothesis of
   log_get_by_time_correct is met.  T is a ghost bound: the largest time published so far. *)
From KV Require Import Base Model ListAux Spec LogInv GetProofs PublishProofs DeleteProofs OpenProofs
     ReadsPreserve History KeyProofs KeyInv TimeProofs.
From Coq Require Import ZifyBool ZifyNat.

Section TimeInv.
Variable H : bytes -> Z.
Notation KInv := (KInv H).
Notation KGood := (KGood H).

Lemma tf_new_head c base : ts_faithful_seg (new_head c base).
Proof. intros iv items E. cbn in E. injection E as <- <-. now left. Qed.

Lemma tf_rewritten p mv iv survive : ptimes p = true -> tmono 0 survive -> ts_faithful_seg (rewritten H p mv iv survive).
Proof.
  intros Hp Hm iv' items E. cbn in E. injection E as <- <-. right. unfold faithful, derive. cbn [srecs rewritten].
  now apply derive_faithful.
Qed.

Lemma tmono_filter f : forall l lo, tmono lo l -> tmono lo (filter f l).
Proof.
  induction l as [|m r IH]; intros lo Hm; [exact I|]. destruct Hm as [H1 H2]. cbn [filter]. destruct (f m).
  - split; [exact H1|now apply IH].
  - apply IH. eapply tmono_weaken; [|exact H2]. exact H1.
Qed.

Lemma tmono_snoc_app lo a b T :
  tmono lo a -> (forall x, In x a -> mtime x <= T) -> lo <= T -> tmono T b -> tmono lo (a ++ b).
Proof.
  revert lo. induction a as [|m r IH]; intros lo Ha Hb Hlo Hm; cbn [app].
  - eapply tmono_weaken; [|exact Hm]. exact Hlo.
  - destruct Ha as [H1 H2]. split; [exact H1|]. apply IH; [exact H2|intros x Hx; apply Hb; now right| |exact Hm].
    apply Hb. now left.
Qed.

Lemma assign_times next : forall ms, map mtime (assign_offsets next ms) = map mtime ms.
Proof. intros ms. revert next. induction ms as [|m r IH]; intros next; [reflexivity|]. cbn [assign_offsets map mtime]. now rewrite IH. Qed.

Lemma tmono_times lo a b : map mtime a = map mtime b -> tmono lo a -> tmono lo b.
Proof.
  revert lo b. induction a as [|x a IH]; intros lo [|y b] E Hm; try discriminate; [exact I|].
  cbn [map] in E. injection E as E1 E2. destruct Hm as [H1 H2]. cbn [tmono]. split; [rewrite <- E1; exact H1|]. rewrite <- E1. now apply IH.
Qed.

Definition last_time (T : Z) (ms : list msg) : Z := match last_opt ms with Some m => mtime m | None => T end.

Lemma tmono_last_bound T ms : tmono T ms -> T <= last_time T ms /\ forall x, In x ms -> mtime x <= last_time T ms.
Proof.
  unfold last_time. revert T. induction ms as [|m r IH]; intros T Hm; [split; [cbn; lia|intros x []]|].
  destruct Hm as [H1 H2]. destruct r as [|m2 r'].
  - cbn. split; [exact H1|intros x [->|[]]; lia].
  - rewrite last_opt_cons_cons. destruct (IH (mtime m) H2) as [A B].
    destruct (last_opt (m2 :: r')) as [lm|] eqn:El; [|apply last_opt_none in El; discriminate].
    split; [lia|]. intros x [->|Hx]; [exact A|now apply B].
Qed.

Definition TSp (p : params) (st : lstate) : Prop := ptimes p = true -> TS st.

Definition TGood (p : params) (T : Z) (st : lstate) : Prop :=
  KGood p st /\ TSp p st /\ tmono 0 (all_recs (segs st)) /\
  (forall m, In m (all_recs (segs st)) -> mtime m <= T) /\ (ptimes p = true -> wcarry st <= T) /\ 0 <= T.

Lemma tgood_init p : TGood p 0 init_state.
Proof.
  split; [apply kgood_init|]. split; [intros _; constructor|]. split; [exact I|]. split; [intros m []|]. cbn. split; [intros _|]; lia.
Qed.

Lemma head_faithful hd : head_inv hd -> ts_faithful_seg hd -> faithful hd (head_items hd).
Proof.
  intros (iv & its0 & Hsi & Hm) Hf. unfold head_items. rewrite Hsi. destruct (Hf iv its0 Hsi) as [->|Hx]; [|exact Hx].
  unfold faithful. destruct Hm as [Ho _]. destruct (srecs hd); [reflexivity|discriminate].
Qed.

Lemma last_its_time hd items m : faithful hd items -> last_opt (srecs hd) = Some m ->
  match last_opt items with Some it => its it = mtime m | None => False end.
Proof.
  unfold faithful. intros Hf Hl.
  assert (E : option_map its (last_opt items) = option_map mtime (last_opt (srecs hd))) by (rewrite <- !last_opt_map, Hf; reflexivity).
  rewrite Hl in E. destruct (last_opt items); cbn in E; [now injection E|discriminate].
Qed.

(* the time carried to the next record of the head: the time of its last message, or wcarry *)
Lemma next_time_bound st hd T :
  TS st -> last_opt (segs st) = Some hd -> head_inv hd ->
  (forall m, In m (all_recs (segs st)) -> mtime m <= T) -> wcarry st <= T -> next_time st hd <= T.
Proof.
  intros HT Ehd Hhead Hb Hw. assert (Hin : In hd (segs st)) by now apply last_opt_in.
  assert (Hf : ts_faithful_seg hd) by (unfold TS in HT; rewrite Forall_forall in HT; now apply HT).
  pose proof (head_faithful hd Hhead Hf) as Hfa.
  unfold next_time. destruct (last_opt (head_items hd)) as [it|] eqn:El; [|exact Hw].
  destruct (last_opt (srecs hd)) as [m|] eqn:Elr.
  - pose proof (last_its_time hd _ m Hfa Elr) as Hl. rewrite El in Hl. rewrite Hl. apply Hb.
    eapply all_recs_in_seg; [exact Hin|now apply last_opt_in].
  - apply last_opt_none in Elr. unfold faithful in Hfa. rewrite Elr in Hfa. destruct (head_items hd); discriminate.
Qed.

Lemma append_head_ts c hd nxt ms ts :
  ctimes c = true -> faithful hd (head_items hd) -> tmono ts ms -> ts_faithful_seg (append_head H c hd nxt ms ts).
Proof.
  intros Hpt Hfa Hms iv items E. cbn [append_head sidx] in E. injection E as _ <-. right. unfold faithful. cbn [srecs append_head].
  rewrite !map_app. f_equal; [exact Hfa|]. apply derive_faithful; [exact Hpt|].
  eapply tmono_times; [symmetry; apply assign_times|exact Hms].
Qed.

Theorem log_publish_ts c st ms st2 n T :
  Inv st -> TS st -> opened st = Some c -> ctimes c = true ->
  (forall m, In m (all_recs (segs st)) -> mtime m <= T) -> wcarry st <= T ->
  tmono T ms -> log_publish H st ms = Ok (st2, n) ->
  TS st2 /\ wcarry st2 <= last_time T ms.
Proof.
  intros HI HT Hc Hpt Hb Hw Hms E. destruct (tmono_last_bound T ms Hms) as [HTle _].
  destruct (log_publish_inv H st ms st2 n E) as (c1 & pre & hd & Hc1 & Hro & Es & Hsz). rewrite Hc in Hc1. injection Hc1 as <-.
  pose proof (Inv_last st c pre hd HI Hc Hro Es) as Hhead.
  assert (Ehd : last_opt (segs st) = Some hd) by (rewrite Es; apply last_opt_app).
  pose proof (next_time_bound st hd T HT Ehd Hhead Hb Hw) as Hnt.
  pose proof (tmono_weaken _ _ _ Hnt Hms) as Hnew.
  rewrite (log_publish_eq H st c ms pre hd Hc Hro Es Hsz) in E. cbn zeta in E. injection E as <- _.
  unfold TS in *. cbn [segs wcarry]. rewrite Es in HT. destruct (proj1 (Forall_app_last _ _ _) HT) as [HTpre HThd].
  destruct (needs_rollover c hd).
  - split; [|exact (Z.le_trans _ _ _ Hnt HTle)]. apply Forall_app_last. split; [exact HT|].
    apply append_head_ts; [exact Hpt|reflexivity|exact Hnew].
  - split; [|exact (Z.le_trans _ _ _ Hw HTle)]. apply Forall_app_last. split; [exact HTpre|].
    apply append_head_ts; [exact Hpt|exact (head_faithful hd Hhead HThd)|exact Hnew].
Qed.

Definition TQ (s : seg) : Prop := tmono 0 (srecs s) /\ ts_faithful_seg s.

Lemma TQ_stable p : ptimes p = true -> stable H p TQ.
Proof.
  intros Hp.
  split; [intros s [Hm _]; split; [exact Hm|intros iv items E; discriminate]|].
  split; [intros s v [Hm _]; split; [exact Hm|intros iv items E; cbn in E; injection E as <- <-; now left]|].
  split; [|split; [|split; [exact I|intros iv items E; discriminate]]].
  - intros s v iv [Hm _]. split; [exact Hm|]. intros iv' items E. cbn in E. injection E as <- <-. right.
    unfold faithful, derive. cbn [srecs]. now apply derive_faithful.
  - intros s v [Hm Hf] _. split; [exact Hm|]. intros iv items E. cbn [sidx] in E. exact (Hf iv items E).
Qed.

Lemma TQ_all l : tmono 0 (all_recs l) -> Forall ts_faithful_seg l -> Forall TQ l.
Proof.
  intros Hm HF. rewrite Forall_forall in *. intros s Hs. split; [now apply (tmono_seg 0 l)|now apply HF].
Qed.

Lemma TQ_ts l : Forall TQ l -> Forall ts_faithful_seg l.
Proof. intros HF. rewrite Forall_forall in *. intros s Hs. exact (proj2 (HF s Hs)). Qed.

Theorem log_delete_ts c st offs st2 r T :
  Inv st -> TS st -> opened st = Some c -> ctimes c = true ->
  tmono 0 (all_recs (segs st)) -> (forall m, In m (all_recs (segs st)) -> mtime m <= T) -> wcarry st <= T ->
  log_delete H st offs = Ok (st2, r) -> TS st2 /\ wcarry st2 <= T.
Proof.
  intros HI HT Hc Hpt Hm Hb Hw E. split.
  - apply TQ_ts. apply (log_delete_segs H TQ c st offs st2 r Hc E (TQ_all _ Hm HT)).
    + intros b. split; [exact I|apply tf_new_head].
    + intros src mv iv f [Hms _]. pose proof (tmono_filter f _ 0 Hms) as Hsm. split; [exact Hsm|now apply tf_rewritten].
  - destruct r as [deleted size]. destruct (log_delete_inv H st offs st2 deleted size E)
      as (c1 & Hc1 & Hro & [(_ & -> & _)|(pre & src & post & Es & _ & _ & _ & _ & ->)]); [exact Hw|].
    destruct post; [|exact Hw]. rewrite Hc in Hc1. injection Hc1 as <-.
    apply (next_time_bound st src T HT); [rewrite Es; apply last_opt_app|exact (Inv_last st c pre src HI Hc Hro Es)|exact Hb|exact Hw].
Qed.

Lemma rebuilds_ts c st st1 :
  rebuilds H c st st1 -> KInv (cparams c) st -> TS st -> opened st = Some c -> ctimes c = true ->
  tmono 0 (all_recs (segs st)) -> TS st1.
Proof.
  induction 1 as [st|st i st1 s items st2 Hw _ IH]; intros HK HT Hc Hp Hm; [exact HT|].
  destruct (with_index_exact H c st i st1 s items HK Hc Hw) as [_ K1].
  destruct (with_index_ts H c st i st1 s items HK HT Hc Hp Hm Hw) as [_ T1].
  destruct HK as (HI & _). destruct (with_index_preserves H c st i st1 s items HI Hc Hw) as (_ & A1 & O1 & _).
  apply IH; try assumption. unfold abs in A1. injection A1 as A1 _. rewrite A1. exact Hm.
Qed.

Lemma rebuilds_wcarry c st st1 : rebuilds H c st st1 -> wcarry st1 = wcarry st.
Proof.
  induction 1 as [st|st i st1 s items st2 Hw _ IH]; [reflexivity|]. rewrite IH. clear IH. unfold with_index in Hw.
  destruct (znth (segs st) i); [|discriminate]. destruct (lvirt st); [now injection Hw as <- _ _|].
  destruct ((i =? zlen (segs st) - 1) && negb (cro c)); [now injection Hw as <- _ _|].
  destruct (ensure_index H (cparams c) (cnewver c) s0) as [[s2 it2]|]; [|discriminate]. cbn [bind] in Hw. now injection Hw as <- _ _.
Qed.

Definition tstep_ok (T : Z) (op : hop) : Prop := match op with HPub ms => tmono T ms | _ => True end.
Definition T_next (T : Z) (op : hop) : Z := match op with HPub ms => last_time T ms | _ => T end.

Lemma T_next_ge T op : tstep_ok T op -> T <= T_next T op.
Proof. destruct op; cbn; try lia. intros Hm. exact (proj1 (tmono_last_bound T ms Hm)). Qed.

Lemma spec_step_times T a op o :
  tstep_ok T op -> 0 <= T -> tmono 0 (live a) -> (forall m, In m (live a) -> mtime m <= T) ->
  tmono 0 (live (spec_step a op o)) /\ forall m, In m (live (spec_step a op o)) -> mtime m <= T_next T op.
Proof.
  intros Hok HT0 Hm Hb. pose proof (T_next_ge T op Hok) as HTle.
  assert (Hsame : tmono 0 (live a) /\ forall m, In m (live a) -> mtime m <= T_next T op)
    by (split; [exact Hm|intros m Hin; specialize (Hb m Hin); lia]).
  destruct op; cbn [spec_step]; try exact Hsame; destruct o as [r|r|r|r|r|r]; try exact Hsame; destruct r as [x|e]; try exact Hsame;
    cbn [T_next tstep_ok] in *.
  - (* Publish *)
    rewrite spec_publish_assign. cbn [live]. pose proof (assign_times (anext a) ms) as Hnt.
    destruct (tmono_last_bound T ms Hok) as [_ Hlb].
    split.
    + apply (tmono_snoc_app 0 _ _ T Hm Hb HT0). eapply tmono_times; [symmetry; exact Hnt|exact Hok].
    + intros m Hin. apply in_app_or in Hin. destruct Hin as [Hin|Hin]; [specialize (Hb m Hin); lia|].
      assert (Hmt : In (mtime m) (map mtime ms)) by (rewrite <- Hnt; now apply in_map).
      apply in_map_iff in Hmt. destruct Hmt as (y & Ey & Hy). rewrite <- Ey. now apply Hlb.
  - (* Delete *)
    destruct x as [deleted sz]. cbn [live]. unfold remove_msgs. split; [now apply tmono_filter|].
    intros m Hin. apply filter_In in Hin. destruct Hin as [Hin _]. exact (Hb m Hin).
Qed.

Lemma hstep_to_tgood p T st op st' o :
  hstep_to H st op st' o -> TGood p T st -> uses p op -> tstep_ok T op ->
  ptimes p = true -> TS st' /\ wcarry st' <= T_next T op.
Proof.
  intros Hs (HKG & HTS & Hm & Hb & Hw & HT0) Hu Hok Hpt. pose proof HKG as (HG & HX & Hp).
  specialize (HTS Hpt). specialize (Hw Hpt). pose proof (T_next_ge T op Hok) as HTle.
  pose proof (TQ_stable p Hpt) as HQ. pose proof (TQ_all _ Hm HTS) as HXQ.
  destruct Hs as [op o _|c st' _ E|st' E|ms c st' n HI Hc E|ms c st' n HI Hc E|offs c st' r HI Hc E
                  |op c st' o _ HI Hc Hb'|which all _|p0 v st' _ E|p0 st' _ E]; cbn [uses tstep_ok T_next] in *.
  - split; [exact HTS|lia].
  - split; [exact (TQ_ts _ (log_open_stable H p TQ st c st' HQ Hu HXQ E))|]. rewrite (proj2 (log_open_handle H st c st' E)). exact HT0.
  - rewrite (log_close_inv st st' E). unfold TS. cbn [segs wcarry]. split; [|exact HT0].
    destruct (lvirt st); [constructor|exact HTS].
  - destruct (Hp c Hc). exact (log_publish_ts c st ms st' n T HI HTS Hc Hpt Hb Hw Hok E).
  - destruct (Hp c Hc). destruct (log_publish_ts c st [] st' n T HI HTS Hc Hpt Hb Hw I E) as [T1 W1].
    split; [exact T1|]. unfold last_time in W1 at 1. cbn in W1. lia.
  - destruct (Hp c Hc). exact (log_delete_ts c st offs st' r T HI HTS Hc Hpt Hm Hb Hw E).
  - destruct (Hp c Hc). split; [exact (rebuilds_ts c st st' Hb' (conj HI (conj HX Hp)) HTS Hc Hpt Hm)|].
    rewrite (rebuilds_wcarry c st st' Hb'). lia.
  - split; [exact (TQ_ts _ (rm_index_stable H p TQ _ 0 which all HQ HXQ))|exact Hw].
  - subst p0. split; [exact (TQ_ts _ (dir_migrate_stable H p TQ v st st' HQ HXQ E))|].
    destruct (dir_migrate_segs H p v st st' E) as (l & _ & ->). exact Hw.
  - subst p0. split; [exact (TQ_ts _ (dir_recover_stable H p TQ st st' HQ HXQ E))|].
    destruct (dir_recover_segs H p st st' E) as (l & _ & ->). exact Hw.
Qed.

Theorem thstep_good p T st op :
  TGood p T st -> uses p op -> tstep_ok T op -> TGood p (T_next T op) (fst (hstep H st op)).
Proof.
  intros HTG Hu Hok. pose proof HTG as (HKG & _ & Hm & Hb & _ & HT0). pose proof HKG as (HG & _).
  pose proof (hstep_graph H st op HG) as Hs. destruct (hstep_to_good H st op _ _ Hs HG) as [_ HA].
  destruct (spec_step_times T (abs st) op (snd (hstep H st op)) Hok HT0 Hm Hb) as [Hm' Hb']. rewrite <- HA in Hm', Hb'.
  pose proof (hstep_to_tgood p T st op _ _ Hs HTG Hu Hok) as Hts. pose proof (T_next_ge T op Hok).
  split; [now apply khstep_good|]. split; [intros Hpt; exact (proj1 (Hts Hpt))|]. split; [exact Hm'|]. split; [exact Hb'|].
  split; [intros Hpt; exact (proj2 (Hts Hpt))|lia].
Qed.

(* the publish times of a history never decrease and none is below T *)
Fixpoint thist_ok (T : Z) (ops : list hop) : Prop :=
  match ops with [] => True | op :: r => tstep_ok T op /\ thist_ok (T_next T op) r end.

Fixpoint T_final (T : Z) (ops : list hop) : Z :=
  match ops with [] => T | op :: r => T_final (T_next T op) r end.

Theorem thistory p ops : forall T st,
  TGood p T st -> Forall (uses p) ops -> thist_ok T ops -> TGood p (T_final T ops) (fst (hrun H st ops)).
Proof.
  induction ops as [|op r IH]; intros T st HG Hu Hok; [exact HG|]. apply Forall_cons_iff in Hu. destruct Hu as [Hu Hur]. destruct Hok as [Hok Hokr].
  cbn [hrun T_final]. pose proof (thstep_good p T st op HG Hu Hok) as HG1. destruct (hstep H st op) as [s1 o]. cbn [fst] in HG1.
  specialize (IH _ s1 HG1 Hur Hokr). destruct (hrun H s1 r) as [s2 os]. exact IH.
Qed.

Lemma tgood_get_by_time p T st c ts :
  TGood p T st -> opened st = Some c -> lvirt st = false ->
  check_get_by_time (abs st) (ctimes c) ts (obs_get (log_get_by_time H st ts)) = true.
Proof.
  intros (HKG & HTS & Hm & _) Hc Hv. pose proof HKG as (HG & HX & Hp). pose proof (Hp c Hc) as Hpc.
  assert (HI : Inv st) by (destruct (good_opened st c HG Hc) as [HI|(Hv' & _)]; [exact HI|congruence]).
  assert (HK : KInv (cparams c) st) by (rewrite Hpc; split; [exact HI|split; assumption]).
  destruct (ctimes c) eqn:Hct.
  - assert (Hts : TS st) by (apply HTS; rewrite <- Hpc; exact Hct).
    pose proof (log_get_by_time_correct H c st ts HK Hts Hc Hm) as Hr. rewrite Hct in Hr. exact Hr.
  - unfold log_get_by_time, get_cfg. rewrite Hc. cbn [bind]. rewrite Hct. reflexivity.
Qed.

Theorem get_by_time_on_monotone_histories p ops c ts :
  Forall (uses p) ops -> thist_ok 0 ops ->
  let st := fst (hrun H init_state ops) in
  opened st = Some c -> lvirt st = false ->
  check_get_by_time (abs st) (ctimes c) ts (obs_get (log_get_by_time H st ts)) = true.
Proof. intros Hu Hok st. exact (tgood_get_by_time p _ st c ts (thistory p ops 0 init_state (tgood_init p) Hu Hok)). Qed.

End TimeInv.
