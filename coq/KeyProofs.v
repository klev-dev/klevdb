(* KeyProofs.v — C09: the exact-index invariant KInv (every index file present is the index derived from its log
   file, key hashes and timestamps included) and GetByKey under it: the last live message whose key is byte-for-byte
   the argument, also when other keys share the hash. *)
From KV Require Import Base Model ListAux SearchProofs SegProofs ReaderProofs Spec SpecFacts LogInv
     GetProofs OpenProofs.
From Coq Require Import ZifyBool ZifyNat.

Section KeyProofs.
Variable H : bytes -> Z.

(* an empty index file is rebuilt before use *)
Definition idx_sat (Q : seg -> list item -> Prop) (s : seg) : Prop :=
  forall iv items, sidx s = Some (iv, items) -> items = [] \/ Q s items.

Lemma ensure_index_sat (Q : seg -> list item -> Prop) p newv s s' items :
  Q (set_idx s (Some (newv, derive H p (sver s) (srecs s)))) (derive H p (sver s) (srecs s)) ->
  seg_inv s -> idx_sat Q s -> ensure_index H p newv s = Ok (s', items) ->
  Q s' items /\ idx_sat Q s'.
Proof.
  intros Qd Hi Hq. unfold ensure_index. destruct (needs_reindex s) eqn:En.
  - unfold reindex. rewrite (seg_inv_open_log s Hi). cbn [bind]. intros E. injection E as <- <-.
    split; [exact Qd|]. intros iv its0 E. cbn in E. injection E as <- <-. right. exact Qd.
  - unfold needs_reindex in En. destruct (sidx s) as [[iv its0]|] eqn:Esi; [|discriminate].
    rewrite (idx_reader_ok s iv its0 Hi Esi). cbn [bind]. intros E. injection E as <- <-.
    destruct (Hq iv its0 Esi) as [->|HQ]; [discriminate|]. split; [exact HQ|exact Hq].
Qed.

(* r.getIndexNow(): the writer's own index of the head is complete, and empty only on an empty head *)
Lemma with_index_sat (Q : seg -> list item -> Prop) c st i st1 s' items :
  (forall s iv, sidx s = Some (iv, []) -> srecs s = [] -> Q s []) ->
  (forall s, In s (segs st) ->
     Q (set_idx s (Some (cnewver c, derive H (cparams c) (sver s) (srecs s)))) (derive H (cparams c) (sver s) (srecs s))) ->
  Inv st -> opened st = Some c -> Forall (idx_sat Q) (segs st) ->
  with_index H c st i = Ok (st1, s', items) ->
  Q s' items /\ Forall (idx_sat Q) (segs st1).
Proof.
  intros Qnil Qd HI Hc HQ.
  unfold with_index. destruct (znth (segs st) i) as [s|] eqn:Hs; [|discriminate]. rewrite (Inv_lvirt _ HI).
  pose proof (Forall_znth _ _ _ _ HQ Hs) as Hsq.
  destruct ((i =? zlen (segs st) - 1) && negb (cro c)) eqn:Ehd.
  - intros E. injection E as <- <- <-. split; [|exact HQ].
    apply andb_prop in Ehd. destruct Ehd as [Ei Ero]. apply Z.eqb_eq in Ei. apply negb_true_iff in Ero.
    destruct (LogInv.Inv_head st c HI Hc Ero) as (hd & Hhd & iv & its0 & Hsidx & Ho & _).
    rewrite last_opt_znth, <- Ei, Hs in Hhd. injection Hhd as <-.
    unfold head_items. rewrite Hsidx. destruct (Hsq iv its0 Hsidx) as [->|Hq]; [|exact Hq].
    apply (Qnil s iv Hsidx). destruct (srecs s); [reflexivity|discriminate].
  - destruct (ensure_index H (cparams c) (cnewver c) s) as [[s2 its2]|] eqn:Ee; [|discriminate]. cbn [bind].
    intros E. injection E as <- <- <-.
    destruct (ensure_index_sat Q _ _ _ _ _ (Qd s (znth_in _ _ _ Hs)) (Forall_znth _ _ _ _ (Inv_seg_inv _ HI) Hs) Hsq Ee) as [Hq Hsq2].
    split; [exact Hq|]. cbn [segs set_segs]. apply replace_nth_Forall; assumption.
Qed.

Definition exact_items (p : params) (s : seg) (items : list item) : Prop :=
  exists ts0, items = derive_from H p (sver s) (hdr_size (sver s)) ts0 (srecs s).

Lemma exact_items_match p s items : exact_items p s items -> items_match (sver s) (hdr_size (sver s)) (srecs s) items.
Proof. intros (ts0 & ->). apply derive_from_match. Qed.

(* idx_sat (exact_items p) *)
Definition idx_exact (p : params) (s : seg) : Prop :=
  forall iv items, sidx s = Some (iv, items) -> items = [] \/ exact_items p s items.

Lemma exact_items_nil p s : srecs s = [] -> exact_items p s [].
Proof. intros E. exists 0. now rewrite E. Qed.

Lemma exact_items_derive p s ix : exact_items p (set_idx s ix) (derive H p (sver s) (srecs s)).
Proof. exists 0. reflexivity. Qed.

Definition KInv (p : params) (st : lstate) : Prop :=
  Inv st /\ Forall (idx_exact p) (segs st) /\ forall c, opened st = Some c -> cparams c = p.

Lemma with_index_exact c st i st1 s' items :
  KInv (cparams c) st -> opened st = Some c -> with_index H c st i = Ok (st1, s', items) ->
  exact_items (cparams c) s' items /\ KInv (cparams c) st1.
Proof.
  intros (HI & HX & Hp) Hc Hw.
  destruct (with_index_sat (exact_items (cparams c)) c st i st1 s' items (fun s _ _ => exact_items_nil _ s)
              (fun s _ => exact_items_derive _ s _) HI Hc HX Hw) as [Hex HX1].
  destruct (with_index_preserves H c st i st1 s' items HI Hc Hw) as (HI1 & _ & Hc1 & _).
  split; [exact Hex|]. split; [exact HI1|]. split; [exact HX1|]. intros c2 E. rewrite Hc1 in E. now injection E as <-.
Qed.

Lemma srecs_shape l l' : Forall2 same_shape l l' -> map srecs l' = map srecs l.
Proof. intros HF. induction HF as [|s s' r r' (Hr & _) _ IH]; [reflexivity|]. cbn [map]. now rewrite Hr, IH. Qed.

Lemma with_index_step c st i s :
  KInv (cparams c) st -> opened st = Some c -> znth (segs st) i = Some s ->
  exists st1 s' items,
    with_index H c st i = Ok (st1, s', items) /\ same_shape s s' /\ seg_ok s' items /\
    exact_items (cparams c) s' items /\ KInv (cparams c) st1 /\ opened st1 = Some c /\
    map srecs (segs st1) = map srecs (segs st) /\ wnext st1 = wnext st.
Proof.
  intros HK Hc Hs. pose proof HK as (HI & _).
  destruct (with_index_ok H c st i s HI Hc Hs) as (st1 & s' & items & Hw & Hok & Hsh & Hst & _).
  destruct (with_index_exact c st i st1 s' items HK Hc Hw) as (Hex & HK1).
  exists st1, s', items. pose proof (f_equal anext (st_shape_abs _ _ Hst)) as Hnx. destruct Hst as (HF2 & Ho & _).
  rewrite Hc in Ho. auto 10 using srecs_shape.
Qed.

(* where the positions of the derived index point *)
Fixpoint placed (v : ver) (cur : Z) (recs : list msg) : list (Z * msg) :=
  match recs with [] => [] | m :: r => (cur, m) :: placed v (cur + rec_size v m) r end.

Lemma placed_snd v recs : forall cur, map snd (placed v cur recs) = recs.
Proof. induction recs as [|m r IH]; intros cur; [reflexivity|]. cbn [placed map snd]. now rewrite IH. Qed.

Lemma placed_ge v recs : forall cur pos m, In (pos, m) (placed v cur recs) -> cur <= pos.
Proof.
  induction recs as [|x r IH]; intros cur pos m Hin; [contradiction|]. cbn [placed] in Hin.
  destruct Hin as [E|Hin]; [injection E as <- _; lia|]. specialize (IH _ _ _ Hin). pose proof (rec_size_pos v x). lia.
Qed.

Lemma read_at_placed v recs : forall cur pos m, In (pos, m) (placed v cur recs) -> read_at_from v cur recs pos = Ok m.
Proof.
  induction recs as [|x r IH]; intros cur pos m Hin; [contradiction|]. cbn [placed] in Hin. cbn [read_at_from].
  destruct Hin as [E|Hin].
  - injection E as <- <-. now rewrite Z.eqb_refl.
  - pose proof (placed_ge _ _ _ _ _ Hin). pose proof (rec_size_pos v x).
    destruct (pos =? cur) eqn:E1; [lia|]. destruct (pos <? cur + rec_size v x) eqn:E2; [lia|]. now apply IH.
Qed.

Lemma lookup_derive p v h recs : pkeys p = true -> forall cur ts,
  map ipos (filter (fun it => ihash it =? h) (derive_from H p v cur ts recs)) =
  map fst (filter (fun pm => H (mkey (snd pm)) =? h) (placed v cur recs)).
Proof.
  intros Hk. induction recs as [|m r IH]; intros cur ts; [reflexivity|]. cbn [derive_from placed filter].
  unfold new_item at 1. cbn [ihash snd]. rewrite Hk.
  destruct (H (mkey m) =? h); cbn [map fst ipos]; [f_equal|]; apply IH.
Qed.

Lemma keys_lookup_exact p s items h :
  pkeys p = true -> exact_items p s items ->
  exists hm : list (Z * msg),
    map ipos (filter (fun it => ihash it =? h) items) = map fst hm /\
    map snd hm = filter (fun m => H (mkey m) =? h) (srecs s) /\
    forall pm, In pm hm -> read_at s (fst pm) = Ok (snd pm).
Proof.
  intros Hk (ts0 & ->). exists (filter (fun pm => H (mkey (snd pm)) =? h) (placed (sver s) (hdr_size (sver s)) (srecs s))).
  split; [apply lookup_derive; exact Hk|]. split.
  - now rewrite (filter_map_snd (fun m => H (mkey m) =? h)), placed_snd.
  - intros [pos m] Hin. apply filter_In in Hin. apply read_at_placed, Hin.
Qed.

Lemma has_key_hash k m : has_key k m = true -> (H (mkey m) =? H k) = true.
Proof. intros E. apply bytes_eqb_eq in E. rewrite <- E. apply Z.eqb_refl. Qed.

(* the loop of Model.reader_get_by_key *)
Definition gk_go (s : seg) (k : bytes) : list Z -> res msg :=
  fix go (l : list Z) : res msg :=
    match l with
    | [] => Err EKeyNotFound
    | p :: r => do m <- read_at s p; if bytes_eqb k (mkey m) then Ok m else go r
    end.

Lemma gk_go_spec s k : forall (l : list (Z * msg)),
  (forall pm, In pm l -> read_at s (fst pm) = Ok (snd pm)) ->
  gk_go s k (map fst l) = match find (has_key k) (map snd l) with Some m => Ok m | None => Err EKeyNotFound end.
Proof.
  induction l as [|pm l IH]; intros Hr; [reflexivity|]. cbn [map gk_go find].
  rewrite (Hr pm (or_introl eq_refl)). cbn [bind]. unfold has_key at 1. destruct (bytes_eqb k (mkey (snd pm))); [reflexivity|].
  apply IH. intros x Hx. apply Hr. now right.
Qed.

Theorem reader_get_by_key_spec p s items k :
  pkeys p = true -> exact_items p s items ->
  reader_get_by_key H s items k =
  match last_opt (filter (has_key k) (srecs s)) with Some m => Ok m | None => Err EKeyNotFound end.
Proof.
  intros Hk Hex. destruct (keys_lookup_exact p s items (H k) Hk Hex) as (hm & Hpos & Hsnd & Hrd).
  unfold reader_get_by_key, keys_lookup. rewrite Hpos.
  (* an empty lookup and the loop over no positions both say ErrKeyNotFound *)
  transitivity (gk_go s k (map fst (rev hm))); [rewrite map_rev; destruct (map fst hm); reflexivity|].
  rewrite gk_go_spec by (intros pm Hin; apply Hrd, in_rev, Hin).
  now rewrite map_rev, Hsnd, find_rev_last, (filter_filter_imp _ _ _ (has_key_hash k)).
Qed.

Definition key_answer (k : bytes) (recs : list msg) : obs msg :=
  match last_opt (filter (has_key k) recs) with Some m => OOk m | None => OErr CNotFound end.

Lemma key_answer_app k a b :
  key_answer k (a ++ b) = match last_opt (filter (has_key k) b) with Some m => OOk m | None => key_answer k a end.
Proof. unfold key_answer. rewrite filter_app, last_opt_app_or. now destruct (last_opt (filter (has_key k) b)). Qed.

(* rl, the record lists of the segments, stays what it is while the index files change under the walk *)
Lemma get_by_key_back_spec c k rl : forall n st,
  KInv (cparams c) st -> opened st = Some c -> ckeys c = true -> map srecs (segs st) = rl -> (n <= length rl)%nat ->
  obs_get (get_by_key_back H c st k n (Z.of_nat n - 1)) = key_answer k (concat (firstn n rl)).
Proof.
  induction n as [|n IH]; intros st HK Hc Hkeys Hrl Hn; [reflexivity|].
  cbn [get_by_key_back]. rewrite Nat2Z.inj_succ, Z.sub_1_r, Z.pred_succ.
  destruct (znth_under (segs st) n) as [s Hs]; [now rewrite <- (map_length srecs), Hrl|].
  destruct (with_index_step c st _ s HK Hc Hs) as (st1 & s' & items & -> & (Hr & _) & _ & Hex & HK1 & Hc1 & Hrl1 & _).
  cbn [bind]. rewrite (reader_get_by_key_spec (cparams c) s' items k Hkeys Hex), Hr.
  rewrite (firstn_succ_znth rl n (srecs s)) by (now rewrite <- Hrl, znth_map, Hs).
  rewrite concat_app. cbn [concat]. rewrite app_nil_r, key_answer_app.
  destruct (last_opt (filter (has_key k) (srecs s))); [reflexivity|].
  apply IH; [assumption..|congruence|apply Nat.lt_le_incl, Hn].
Qed.

Theorem log_get_by_key_answer c st k :
  KInv (cparams c) st -> opened st = Some c -> ckeys c = true ->
  obs_get (log_get_by_key H st k) = key_answer k (live (abs st)).
Proof.
  intros HK Hc Hkeys. unfold log_get_by_key, get_cfg. rewrite Hc. cbn [bind]. rewrite Hkeys. cbn [negb].
  change (zlen (segs st) - 1) with (Z.of_nat (length (segs st)) - 1).
  rewrite (get_by_key_back_spec c k (map srecs (segs st)) (length (segs st)) st HK Hc Hkeys eq_refl) by (now rewrite map_length).
  now rewrite <- (map_length srecs), firstn_all.
Qed.

(* GetByKey on any state of a session with the key index: the live message with the greatest offset whose
   key equals the argument byte for byte, ErrNotFound if there is none; ErrNoIndex without the key index *)
Theorem log_get_by_key_correct c st k :
  KInv (cparams c) st -> opened st = Some c ->
  check_get_by_key (abs st) (ckeys c) k (obs_get (log_get_by_key H st k)) = true.
Proof.
  intros HK Hc. unfold check_get_by_key. destruct (ckeys c) eqn:Hkeys; cbn [negb].
  - rewrite (log_get_by_key_answer c st k HK Hc Hkeys). unfold key_answer.
    destruct (last_opt (filter (has_key k) (live (abs st)))); [apply msg_eqb_refl|reflexivity].
  - unfold log_get_by_key, get_cfg. rewrite Hc. cbn [bind]. now rewrite Hkeys.
Qed.

End KeyProofs.
