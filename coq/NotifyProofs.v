(* NotifyProofs.v — C18: the notifier of Notify.v, for any number of threads and any interleaving.
   The barrier channel holds one value, so its content is a token: whoever took it (holds) is alone between its receive
   and its send or close.  The invariant ninv says so, and has one clause for a waiter parked on a channel that is still
   open (wait_ok): the channel is the one in circulation, and NextOffset has not passed the waiter's offset unless the
   token holder is about to close that channel. *)
From KV Require Import Base Notify.
From Coq Require Import ZifyBool ZifyNat.

Lemma nth_set_nth_at {A} (l : list A) i x y : nth_error l i = Some y -> nth_error (set_nth i l x) i = Some x.
Proof. revert i; induction l as [|a l IH]; intros [|i] Hn; try discriminate Hn; [reflexivity|exact (IH i Hn)]. Qed.

Lemma nth_set_nth_neq {A} (l : list A) i j x : i <> j -> nth_error (set_nth i l x) j = nth_error l j.
Proof. revert i j; induction l as [|a l IH]; intros [|i] [|j] Hne; cbn; auto; try congruence. Qed.

Lemma set_nth_forall {A} (P : nat -> A -> Prop) (l : list A) i x y :
  nth_error l i = Some y -> P i x -> (forall j q, j <> i -> nth_error l j = Some q -> P j q) ->
  forall j q, nth_error (set_nth i l x) j = Some q -> P j q.
Proof.
  intros Hn Hx Hoth j q Hq. destruct (Nat.eq_dec j i) as [->|Hne].
  - rewrite (nth_set_nth_at l i x y Hn) in Hq. injection Hq as <-. exact Hx.
  - rewrite nth_set_nth_neq in Hq by congruence. exact (Hoth j q Hne Hq).
Qed.

Definition holds (p : pc) : bool :=
  match p with W2 _ _ | W3 _ _ _ | S1 _ _ | S2 _ | S3 | C1 _ | C2 => true | _ => false end.

Definition carries (p : pc) : option nat :=
  match p with W2 _ b | W3 _ b _ | S1 _ b | S2 b | C1 b => Some b | _ => None end.

Definition mentions (p : pc) : option nat :=
  match p with W4 _ b => Some b | _ => carries p end.

(* the broadcast channel currently in circulation *)
Definition cur (s : nstate) (b : nat) : Prop :=
  tok s = InChan b \/ exists i p, tok s = Held i /\ nth_error (threads s) i = Some p /\ carries p = Some b.

(* the token holder is about to close b (a Set after its store, or a Close) *)
Definition closing (s : nstate) (b : nat) : Prop :=
  exists i, tok s = Held i /\ (nth_error (threads s) i = Some (S2 b) \/ nth_error (threads s) i = Some (C1 b)).

Definition wait_ok (s : nstate) (p : pc) : Prop :=
  match p with
  | W4 off b => is_closed s b = false -> cur s b /\ (nxt s <= off \/ closing s b)
  | W3 off b false => nxt s <= off
  | _ => True
  end.

Record ninv (s : nstate) : Prop := mkNinv {
  inv_holder : forall i p, nth_error (threads s) i = Some p -> (holds p = true <-> tok s = Held i);
  inv_chan   : forall b, tok s = InChan b -> (b < fresh s)%nat /\ is_closed s b = false;
  inv_closed : forall b, is_closed s b = true -> (b < fresh s)%nat;
  inv_ment   : forall i p b, nth_error (threads s) i = Some p -> mentions p = Some b -> (b < fresh s)%nat;
  inv_carry  : forall i p b, nth_error (threads s) i = Some p -> carries p = Some b -> is_closed s b = false;
  inv_wait   : forall i p, nth_error (threads s) i = Some p -> wait_ok s p
}.

Definition closes (p : pc) : option nat :=
  match p with S2 b | C1 b => Some b | _ => None end.

Lemma carries_holds p b : carries p = Some b -> holds p = true.
Proof. destruct p; intros [=]; reflexivity. Qed.

Lemma carries_mentions p b : carries p = Some b -> mentions p = Some b.
Proof. destruct p; intros [= ->]; reflexivity. Qed.

Lemma mentions_holder p : holds p = true -> mentions p = carries p.
Proof. destruct p; intros [=]; reflexivity. Qed.

Lemma closes_carries p b : closes p = Some b -> carries p = Some b.
Proof. destruct p; intros [= ->]; reflexivity. Qed.

Lemma closes_cases p b : closes p = Some b <-> p = S2 b \/ p = C1 b.
Proof.
  split; [|now intros [->| ->]].
  destruct p; try discriminate; intros [= ->]; auto.
Qed.

Lemma cur_unique s b b' : ninv s -> cur s b -> cur s b' -> b = b'.
Proof. intros _ [E|(i & p & Et & Hn & Hc)] [E'|(i' & p' & Et' & Hn' & Hc')]; congruence. Qed.

Lemma is_closed_cons s b x :
  existsb (Nat.eqb b) (x :: closed s) = Nat.eqb b x || is_closed s b.
Proof. reflexivity. Qed.

Lemma cur_free s b0 b : tok s = InChan b0 -> (cur s b <-> b0 = b).
Proof.
  intros Et. unfold cur. rewrite Et. split.
  - intros [[= ->]|(i & p & [=] & _)]. reflexivity.
  - intros ->. now left.
Qed.

Lemma cur_held s i p b : tok s = Held i -> nth_error (threads s) i = Some p -> (cur s b <-> carries p = Some b).
Proof.
  intros Et Hn. unfold cur. rewrite Et. split.
  - intros [[=]|(j & q & [= <-] & Hq & Hc)]. congruence.
  - intros Hc. right. now exists i, p.
Qed.

Lemma closing_held s i p b : tok s = Held i -> nth_error (threads s) i = Some p -> (closing s b <-> closes p = Some b).
Proof.
  intros Et Hn. unfold closing. rewrite Et, closes_cases. split.
  - intros (j & [= <-] & Hj). rewrite Hn in Hj. destruct Hj as [[= ->]|[= ->]]; auto.
  - intros Hp. exists i. rewrite Hn. split; [reflexivity|]. destruct Hp as [->| ->]; auto.
Qed.

Lemma parked_free s b0 off b : tok s = InChan b0 ->
  (wait_ok s (W4 off b) <-> (is_closed s b = false -> b0 = b /\ nxt s <= off)).
Proof.
  intros Et. cbn [wait_ok]. rewrite (cur_free s b0 b Et).
  assert (Hn : ~ closing s b) by (intros (j & Ej & _); congruence). tauto.
Qed.

Lemma parked_held s i p off b : tok s = Held i -> nth_error (threads s) i = Some p ->
  (wait_ok s (W4 off b) <-> (is_closed s b = false -> carries p = Some b /\ (nxt s <= off \/ closes p = Some b))).
Proof. intros Et Hn. cbn [wait_ok]. now rewrite (cur_held s i p b Et Hn), (closing_held s i p b Et Hn). Qed.

Lemma cur_frame s s' b :
  tok s' = tok s ->
  (forall j, tok s = Held j -> nth_error (threads s') j = nth_error (threads s) j) ->
  cur s b -> cur s' b.
Proof.
  intros Et Hth [E|(j & p & Ej & Hn & Hc)]; [left; congruence|].
  right. exists j, p. split; [congruence|]. split; [rewrite (Hth j Ej); exact Hn|exact Hc].
Qed.

Lemma closing_frame s s' b :
  tok s' = tok s ->
  (forall j, tok s = Held j -> nth_error (threads s') j = nth_error (threads s) j) ->
  closing s b -> closing s' b.
Proof.
  intros Et Hth (j & Ej & Hn). exists j. split; [congruence|]. rewrite (Hth j Ej). exact Hn.
Qed.

Definition tinv (s : nstate) (i : nat) (p : pc) : Prop :=
  (holds p = true <-> tok s = Held i) /\
  (forall b, mentions p = Some b -> (b < fresh s)%nat) /\
  (forall b, carries p = Some b -> is_closed s b = false) /\
  wait_ok s p.

Lemma ninv_thread s i p : ninv s -> nth_error (threads s) i = Some p -> tinv s i p.
Proof.
  intros HI Hn. split; [exact (inv_holder s HI i p Hn)|]. split; [exact (fun b => inv_ment s HI i p b Hn)|].
  split; [exact (fun b => inv_carry s HI i p b Hn)|exact (inv_wait s HI i p Hn)].
Qed.

Lemma ninv_intro s :
  (forall b, tok s = InChan b -> (b < fresh s)%nat /\ is_closed s b = false) ->
  (forall b, is_closed s b = true -> (b < fresh s)%nat) ->
  (forall i p, nth_error (threads s) i = Some p -> tinv s i p) ->
  ninv s.
Proof.
  intros Hchan Hclosed Hth. constructor; try assumption; intros i p **; now apply (Hth i p).
Qed.

Lemma tinv_silent s i p : mentions p = None -> (holds p = true <-> tok s = Held i) -> tinv s i p.
Proof.
  intros Hm Hh. split; [exact Hh|]. split; [intros b E; congruence|].
  split; [intros b E; apply carries_mentions in E; congruence|]. destruct p; try exact I; discriminate.
Qed.

Definition entry (p : pc) : bool :=
  match p with W0 _ | S0 _ | C0 => true | _ => false end.

Lemma ninit_inv next ts : forallb entry ts = true -> ninv (ninit next ts).
Proof.
  intros Hall. apply ninv_intro; cbn [ninit threads tok fresh].
  - intros b [= <-]. split; [lia|reflexivity].
  - intros b [=].
  - intros i p Hn. rewrite forallb_forall in Hall. pose proof (Hall p (nth_error_In _ _ Hn)) as He.
    apply tinv_silent; [now destruct p|]. destruct p; try discriminate He; split; discriminate.
Qed.

Lemma other_kept s s' j q :
  tinv s j q -> (fresh s <= fresh s')%nat ->
  (tok s' = tok s /\ nxt s' = nxt s /\ closed s' = closed s) \/ (tok s <> Held j /\ tok s' <> Held j) ->
  (forall off b, wait_ok s (W4 off b) -> wait_ok s' (W4 off b)) ->
  tinv s' j q.
Proof.
  intros (Hh & Hm & Hc & Hw) Hf Hsh Hpark.
  assert (Hm' : forall b, mentions q = Some b -> (b < fresh s')%nat) by (intros b E; specialize (Hm b E); lia).
  destruct Hsh as [(Et & En & Ec)|[Hs Hs']].
  - unfold tinv, is_closed. rewrite Et, Ec. split; [exact Hh|]. split; [exact Hm'|]. split; [exact Hc|].
    destruct q; try exact I; [|now apply Hpark]. cbn [wait_ok] in *. now rewrite En.
  - assert (Hq : holds q = false) by (destruct (holds q); [elim Hs; now apply Hh|reflexivity]).
    split; [split; [congruence|intros E; contradiction]|]. split; [exact Hm'|].
    split; [intros b E; apply carries_holds in E; congruence|].
    destruct q; try exact I; [discriminate|now apply Hpark].
Qed.

Lemma ninv_set s s' i p p' :
  ninv s -> nth_error (threads s) i = Some p -> threads s' = set_nth i (threads s) p' ->
  (forall b, tok s' = InChan b -> (b < fresh s')%nat /\ is_closed s' b = false) ->
  (forall b, is_closed s' b = true -> (b < fresh s')%nat) ->
  tinv s' i p' ->
  (fresh s <= fresh s')%nat ->
  (tok s' = tok s /\ nxt s' = nxt s /\ closed s' = closed s) \/ (forall j, j <> i -> tok s <> Held j /\ tok s' <> Held j) ->
  (forall off b, wait_ok s (W4 off b) -> wait_ok s' (W4 off b)) ->
  ninv s'.
Proof.
  intros HI Hn Eth Hchan Hclosed Hi Hf Hsh Hpark. apply ninv_intro; [exact Hchan|exact Hclosed|].
  rewrite Eth. apply (set_nth_forall (tinv s') _ i p' p Hn Hi). intros j q Hne Hq.
  apply (other_kept s s' j q (ninv_thread s j q HI Hq) Hf); [|exact Hpark].
  destruct Hsh as [Hsame|Hown]; [left; exact Hsame|right; exact (Hown j Hne)].
Qed.

(* tstep and tcancel cut down to what the invariant needs to know of them (the steps that give the token back do not
   ask who holds it: the invariant says so) *)
Inductive moves (s : nstate) (i : nat) : nstate -> Prop :=
| m_local p p' :
    nth_error (threads s) i = Some p -> holds p = false -> holds p' = false -> mentions p' = None ->
    moves s i (upd s i p')
| m_acquire p p' b :
    nth_error (threads s) i = Some p -> tok s = InChan b -> holds p' = true -> carries p' = Some b ->
    (match p' with W3 _ _ _ => False | _ => True end) ->
    moves s i (mkN (nxt s) (Held i) (closed s) (fresh s) (set_nth i (threads s) p'))
| m_probe off b :
    nth_error (threads s) i = Some (W2 off b) ->
    moves s i (upd s i (W3 off b (off <? nxt s)))
| m_handback off b u :
    nth_error (threads s) i = Some (W3 off b u) ->
    moves s i (mkN (nxt s) (InChan b) (closed s) (fresh s) (set_nth i (threads s) (if u then WOk off else W4 off b)))
| m_store v b :
    nth_error (threads s) i = Some (S1 v b) ->
    moves s i (mkN (if nxt s <? v then v else nxt s) (tok s) (closed s) (fresh s) (set_nth i (threads s) (S2 b)))
| m_close p p' b :   (* S2 -> S3, C1 -> C2 *)
    nth_error (threads s) i = Some p -> closes p = Some b -> holds p' = true -> mentions p' = None ->
    moves s i (mkN (nxt s) (tok s) (b :: closed s) (fresh s) (set_nth i (threads s) p'))
| m_renew :          (* a fresh broadcast channel goes into the barrier *)
    nth_error (threads s) i = Some S3 ->
    moves s i (mkN (nxt s) (InChan (fresh s)) (closed s) (S (fresh s)) (set_nth i (threads s) SDone))
| m_shut :           (* closing the barrier *)
    nth_error (threads s) i = Some C2 ->
    moves s i (mkN (nxt s) Gone (closed s) (fresh s) (set_nth i (threads s) CDone)).

Lemma tstep_moves s i s' : tstep s i = Some s' -> moves s i s'.
Proof.
  unfold tstep. destruct (nth_error (threads s) i) as [p|] eqn:Hn; [|discriminate].
  destruct p; try discriminate.
  - intros [= <-]. apply (m_local s i _ _ Hn); [reflexivity|destruct (off <? nxt s); reflexivity..].
  - destruct (tok s) as [b|j|] eqn:Et; [|discriminate|]; intros [= <-].
    + apply (m_acquire s i _ (W2 off b) b Hn Et); trivial.
    + apply (m_local s i _ (WClosed off) Hn); trivial.
  - intros [= <-]. exact (m_probe s i off b Hn).
  - destruct (tok s) as [|j|]; try discriminate. destruct (Nat.eqb j i); [|discriminate].
    intros [= <-]. exact (m_handback s i off b u Hn).
  - destruct (is_closed s b); [|discriminate]. intros [= <-]. apply (m_local s i _ (WOk off) Hn); trivial.
  - destruct (tok s) as [b|j|] eqn:Et; [|discriminate|]; intros [= <-].
    + apply (m_acquire s i _ (S1 v b) b Hn Et); trivial.
    + apply (m_local s i _ SDone Hn); trivial.
  - intros [= <-]. exact (m_store s i v b Hn).
  - intros [= <-]. apply (m_close s i _ S3 b Hn); trivial.
  - destruct (tok s) as [|j|]; try discriminate. destruct (Nat.eqb j i); [|discriminate].
    intros [= <-]. exact (m_renew s i Hn).
  - destruct (tok s) as [b|j|] eqn:Et; [|discriminate|]; intros [= <-].
    + apply (m_acquire s i _ (C1 b) b Hn Et); trivial.
    + apply (m_local s i _ CErr Hn); trivial.
  - intros [= <-]. apply (m_close s i _ C2 b Hn); trivial.
  - destruct (tok s) as [|j|]; try discriminate. destruct (Nat.eqb j i); [|discriminate].
    intros [= <-]. exact (m_shut s i Hn).
Qed.

Lemma tcancel_moves s i s' : tcancel s i = Some s' -> moves s i s'.
Proof.
  unfold tcancel. destruct (nth_error (threads s) i) as [[]|] eqn:Hn; try discriminate.
  intros [= <-]. apply (m_local s i _ (WCanceled off) Hn); trivial.
Qed.

Theorem moves_inv s i s' : ninv s -> moves s i s' -> ninv s'.
Proof.
  intros HI Hmv. pose proof (inv_chan s HI) as Hchan. pose proof (inv_closed s HI) as Hclosed.
  destruct Hmv as [p p' Hn Hp Hp' Hm'|p p' b Hn Et Hp' Hc' Hsh|off b Hn|off b u Hn|v b Hn|p p' b Hn Hcl Hp' Hm'|Hn|Hn];
    destruct (ninv_thread s i _ HI Hn) as (Hh & Hm & Hc & Hw).
  - (* m_local: neither the token nor a shared field changes, and the holder, if there is one, is another thread *)
    assert (Hni : tok s <> Held i) by (intros E; apply Hh in E; congruence).
    apply (ninv_set s _ i p p' HI Hn); cbn [upd tok fresh nxt closed];
      [reflexivity|exact Hchan|exact Hclosed| |apply le_n|now left|].
    + apply tinv_silent; [exact Hm'|]. split; [congruence|intros E; contradiction].
    + assert (Hth : forall j, tok s = Held j -> nth_error (threads (upd s i p')) j = nth_error (threads s) j)
        by (intros j Ej; apply nth_set_nth_neq; congruence).
      intros off b Hw0 Hc0. destruct (Hw0 Hc0) as [Hcur Hor]. split; [now apply (cur_frame s)|].
      destruct Hor as [Hle|Hcl]; [now left|right; now apply (closing_frame s)].
  - (* m_acquire: for a parked waiter, "b is in the barrier" becomes "the holder carries b" *)
    destruct (Hchan b Et) as [Hbf Hbo].
    apply (ninv_set s _ i p p' HI Hn); cbn [tok fresh nxt closed];
      [reflexivity|intros b0 [=]|exact Hclosed| |apply le_n|right; intros j Hne; split; congruence|].
    + split; [now split|]. rewrite (mentions_holder p' Hp'), Hc'. split; [now intros b0 [= <-]|].
      split; [now intros b0 [= <-]|]. destruct p'; try exact I; [contradiction|discriminate].
    + intros off b0 Hw0. eapply parked_held; [reflexivity|exact (nth_set_nth_at _ _ _ _ Hn)|]. intros Hc0.
      apply -> (parked_free s b off b0 Et) in Hw0; [|exact Hc0]. destruct Hw0 as [<- Hle]. split; [exact Hc'|now left].
  - (* m_probe: the flag of W3 records a comparison made under the token *)
    assert (Et : tok s = Held i) by now apply Hh.
    apply (ninv_set s _ i _ (W3 off b (off <? nxt s)) HI Hn); cbn [upd tok fresh nxt closed];
      [reflexivity|exact Hchan|exact Hclosed| |apply le_n|now left|].
    + split; [exact Hh|]. split; [exact Hm|]. split; [exact Hc|].
      destruct (off <? nxt s) eqn:E; [exact I|]. cbn [wait_ok upd nxt]. lia.
    + intros off0 b0 Hw0. eapply parked_held; [exact Et|exact (nth_set_nth_at _ _ _ _ Hn)|].
      exact (proj1 (parked_held s i _ off0 b0 Et Hn) Hw0).
  - (* m_handback: i parks on b with nxt s <= off from its probe (Hw): it held the token since, so no Set stored *)
    assert (Et : tok s = Held i) by now apply Hh.
    apply (ninv_set s _ i _ (if u then WOk off else W4 off b) HI Hn); cbn [tok fresh nxt closed];
      [reflexivity| |exact Hclosed| |apply le_n|right; intros j Hne; split; congruence|].
    + intros b0 [= <-]. split; [now apply Hm|now apply Hc].
    + destruct u; [now apply tinv_silent|]. split; [now split|]. split; [intros b0 [= <-]; now apply Hm|].
      split; [discriminate|]. eapply parked_free; [reflexivity|]. intros _. split; [reflexivity|exact Hw].
    + intros off0 b0 Hw0. eapply parked_free; [reflexivity|]. intros Hc0.
      apply -> (parked_held s i _ off0 b0 Et Hn) in Hw0; [|exact Hc0]. destruct Hw0 as [[= <-] [Hle|[=]]]. now split.
  - (* m_store: NextOffset may pass the offset of a waiter parked on b; from here on the holder closes b *)
    assert (Et : tok s = Held i) by now apply Hh.
    apply (ninv_set s _ i _ (S2 b) HI Hn); cbn [tok fresh nxt closed];
      [reflexivity|exact Hchan|exact Hclosed| |apply le_n|right; intros j Hne; split; congruence|].
    + split; [exact Hh|]. split; [exact Hm|]. split; [exact Hc|exact I].
    + intros off0 b0 Hw0. eapply parked_held; [exact Et|exact (nth_set_nth_at _ _ _ _ Hn)|]. intros Hc0.
      apply -> (parked_held s i _ off0 b0 Et Hn) in Hw0; [|exact Hc0]. destruct Hw0 as [Hcar _]. split; [exact Hcar|right; exact Hcar].
  - (* m_close: a waiter parked on an open channel is parked on the one the holder carries, b, which this step closes *)
    pose proof (closes_carries p b Hcl) as Hcar.
    assert (Et : tok s = Held i) by (apply Hh; exact (carries_holds p b Hcar)).
    set (s' := mkN (nxt s) (tok s) (b :: closed s) (fresh s) (set_nth i (threads s) p')).
    assert (Hopen : forall b0, is_closed s' b0 = Nat.eqb b0 b || is_closed s b0) by (intros b0; apply is_closed_cons).
    apply (ninv_set s s' i p p' HI Hn); cbn [s' tok fresh nxt closed];
      [reflexivity|rewrite Et; intros b0 [=]| | |apply le_n|right; intros j Hne; split; congruence|].
    + intros b0 E. rewrite Hopen in E. apply orb_prop in E. destruct E as [E|E]; [|exact (Hclosed b0 E)].
      apply Nat.eqb_eq in E. subst b0. apply Hm. now apply carries_mentions.
    + apply tinv_silent; [exact Hm'|now split].
    + intros off0 b0 Hw0 Hc0. rewrite Hopen in Hc0. apply orb_false_elim in Hc0. destruct Hc0 as [Hne Hc0].
      apply -> (parked_held s i _ off0 b0 Et Hn) in Hw0; [|exact Hc0]. destruct Hw0 as [Hcar0 _].
      assert (b0 = b) by congruence. subst b0. rewrite Nat.eqb_refl in Hne. discriminate.
  - (* m_renew: S3 carries no channel, so no waiter is parked on an open one; the fresh identity is closed nowhere *)
    assert (Et : tok s = Held i) by now apply Hh.
    apply (ninv_set s _ i _ SDone HI Hn); cbn [tok fresh nxt closed];
      [reflexivity| | | |apply le_S, le_n|right; intros j Hne; split; congruence|].
    + intros b0 [= <-]. split; [apply le_n|]. destruct (is_closed s (fresh s)) eqn:Ec; [|exact Ec].
      destruct (Nat.lt_irrefl _ (Hclosed _ Ec)).
    + intros b0 E. apply le_S. exact (Hclosed b0 E).
    + now apply tinv_silent.
    + intros off0 b0 Hw0 Hc0. apply -> (parked_held s i _ off0 b0 Et Hn) in Hw0; [|exact Hc0]. now destruct Hw0 as [[=] _].
  - (* m_shut: C2 carries no channel either *)
    assert (Et : tok s = Held i) by now apply Hh.
    apply (ninv_set s _ i _ CDone HI Hn); cbn [tok fresh nxt closed];
      [reflexivity|intros b0 [=]|exact Hclosed| |apply le_n|right; intros j Hne; split; congruence|].
    + now apply tinv_silent.
    + intros off0 b0 Hw0 Hc0. apply -> (parked_held s i _ off0 b0 Et Hn) in Hw0; [|exact Hc0]. now destruct Hw0 as [[=] _].
Qed.

Theorem nstep_inv s a s' : ninv s -> nstep s a = Some s' -> ninv s'.
Proof.
  intros HI Hs. destruct a as [i|i]; apply (moves_inv s i s' HI); [now apply tstep_moves|now apply tcancel_moves].
Qed.

Theorem reach_inv next ts s :
  forallb entry ts = true -> reach (ninit next ts) s -> ninv s.
Proof.
  intros Hent Hr. induction Hr as [|s a s' Hr IH Hstep]; [now apply ninit_inv|exact (nstep_inv s a s' IH Hstep)].
Qed.

(* channel safety: whoever is about to send on / close the barrier holds the only token, so the send finds the channel
   open and empty and nobody closes twice; a broadcast channel is closed once *)
Theorem chan_safety s i p :
  ninv s -> nth_error (threads s) i = Some p ->
  match p with
  | W3 _ _ _ | S3 | C2 => tok s = Held i
  | S2 b | C1 b => tok s = Held i /\ is_closed s b = false
  | _ => True
  end.
Proof.
  intros HI Hn. destruct (ninv_thread s i p HI Hn) as (Hh & _ & Hc & _).
  destruct p; try exact I; try (split; [|now apply Hc]); now apply Hh.
Qed.

Definition quiescent (s : nstate) : Prop := forall i p, nth_error (threads s) i = Some p -> holds p = false.

(* no lost wake-up: when no Set or Close is in progress, a waiter parked on an open channel has an offset that
   NextOffset has not passed; the other way round (passed_waiter_wakes), once NextOffset has passed its offset its
   channel is closed and the waiter is enabled *)
Theorem parked_only_if_not_passed s j off b :
  ninv s -> quiescent s -> nth_error (threads s) j = Some (W4 off b) -> is_closed s b = false -> nxt s <= off.
Proof.
  intros HI Hq Hj Hc. destruct (inv_wait s HI j _ Hj Hc) as [_ [Hle|(i & _ & Hi)]]; [exact Hle|].
  destruct Hi as [Hi|Hi]; discriminate (Hq i _ Hi).
Qed.

Theorem passed_waiter_wakes s j off b :
  ninv s -> quiescent s -> nth_error (threads s) j = Some (W4 off b) -> off < nxt s ->
  exists s', tstep s j = Some s' /\ nth_error (threads s') j = Some (WOk off).
Proof.
  intros HI Hq Hj Hlt. destruct (is_closed s b) eqn:Hc.
  - unfold tstep. rewrite Hj, Hc. eexists. split; [reflexivity|exact (nth_set_nth_at _ _ _ _ Hj)].
  - pose proof (parked_only_if_not_passed s j off b HI Hq Hj Hc). lia.
Qed.

(* a waiter whose offset is below NextOffset (or relative, hence negative) returns without blocking *)
Theorem immediate_return s j off :
  nth_error (threads s) j = Some (W0 off) -> off < nxt s ->
  exists s', tstep s j = Some s' /\ nth_error (threads s') j = Some (WOk off).
Proof.
  intros Hj Hlt. unfold tstep. rewrite Hj. destruct (off <? nxt s) eqn:E; [|lia].
  eexists. split; [reflexivity|exact (nth_set_nth_at _ _ _ _ Hj)].
Qed.

(* a wait at or beyond NextOffset that reaches the barrier after Close fails *)
Theorem wait_after_close s j off :
  nth_error (threads s) j = Some (W1 off) -> tok s = Gone ->
  exists s', tstep s j = Some s' /\ nth_error (threads s') j = Some (WClosed off).
Proof.
  intros Hj Et. unfold tstep. rewrite Hj, Et. eexists. split; [reflexivity|exact (nth_set_nth_at _ _ _ _ Hj)].
Qed.

Lemma moves_nxt s i s' : moves s i s' -> nxt s <= nxt s'.
Proof. destruct 1; cbn [upd nxt]; try apply Z.le_refl. destruct (nxt s <? v) eqn:E; lia. Qed.

Lemma moves_closed s i s' b :
  moves s i s' -> is_closed s b = false -> is_closed s' b = true ->
  nth_error (threads s) i = Some (S2 b) \/ nth_error (threads s) i = Some (C1 b).
Proof.
  intros Hmv Hopen. destruct Hmv as [| | | | |p p' b0 Hn Hcl _ _| |]; intros Hshut;
    try (exfalso; exact (eq_true_false_abs _ Hshut Hopen)).
  change (Nat.eqb b b0 || is_closed s b = true) in Hshut. rewrite Hopen, orb_false_r in Hshut.
  apply Nat.eqb_eq in Hshut. subst b0. apply closes_cases in Hcl. destruct Hcl as [->| ->]; auto.
Qed.

Lemma tcancel_shared s i s' : tcancel s i = Some s' -> nxt s' = nxt s /\ closed s' = closed s.
Proof. unfold tcancel. destruct (nth_error (threads s) i) as [[]|]; try discriminate. now intros [= <-]. Qed.

Theorem next_offset_monotone s a s' : nstep s a = Some s' -> nxt s <= nxt s'.
Proof.
  destruct a as [i|i]; cbn [nstep]; intros Hs.
  - exact (moves_nxt s i s' (tstep_moves s i s' Hs)).
  - apply tcancel_shared in Hs. destruct Hs as [-> _]. apply Z.le_refl.
Qed.

(* a parked waiter stays blocked while no Set and no Close runs: only they close a broadcast channel *)
Theorem closed_only_by_set_or_close s a s' b :
  nstep s a = Some s' -> is_closed s b = false -> is_closed s' b = true ->
  exists i, a = Step i /\ (nth_error (threads s) i = Some (S2 b) \/ nth_error (threads s) i = Some (C1 b)).
Proof.
  destruct a as [i|i]; cbn [nstep]; intros Hs H0 H1.
  - exists i. split; [reflexivity|]. exact (moves_closed s i s' b (tstep_moves s i s' Hs) H0 H1).
  - apply tcancel_shared in Hs. destruct Hs as [_ Ec]. unfold is_closed in H0, H1. rewrite Ec in H1. congruence.
Qed.

(* the extension with pending cancellations adds no behaviour to the base system *)
Lemma xstep_lift x a x' :
  option_map (fun s => mkX s (canc x)) (nstep (base x) a) = Some x' ->
  base x' = base x \/ exists a', nstep (base x) a' = Some (base x').
Proof. destruct (nstep (base x) a) eqn:E; [|discriminate]. intros [= <-]. right. now exists a. Qed.

Lemma xstep_base x a x' :
  xstep x a = Some x' -> base x' = base x \/ exists a', nstep (base x) a' = Some (base x').
Proof.
  destruct a as [i|i]; cbn [xstep]; destruct (nth_error (threads (base x)) i) as [p|]; try discriminate;
    try exact (xstep_lift x (Step i) x').
  - destruct p; try exact (xstep_lift x (Step i) x').
    destruct (is_canc x i && _); [exact (xstep_lift x (Cancel i) x')|exact (xstep_lift x (Step i) x')].
  - destruct p; try discriminate; try exact (xstep_lift x (Cancel i) x'); intros [= <-]; now left.
Qed.

Theorem xrun_reach next ts : forall sched x,
  reach (ninit next ts) (base x) -> reach (ninit next ts) (base (xrun x sched)).
Proof.
  induction sched as [|a r IH]; intros x Hx; [exact Hx|]. cbn [xrun].
  destruct (xstep x a) as [x'|] eqn:E; [|now apply IH]. apply IH.
  destruct (xstep_base x a x' E) as [->|(a' & Ha')]; [exact Hx|]. eapply reach_step; eassumption.
Qed.

(* hence the invariant, and with it every theorem above, holds after any schedule with early cancellations *)
Corollary xrun_inv next ts sched :
  forallb entry ts = true -> ninv (base (xrun (mkX (ninit next ts) []) sched)).
Proof.
  intros He. eapply reach_inv; [exact He|]. apply xrun_reach. apply reach_refl.
Qed.
