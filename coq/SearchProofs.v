(* SearchProofs.v — the binary searches of pkg/index/offset.go,
   pkg/index/times.go and pkg/segment/index.go, as transcribed in Model.v,
   characterised for arrays of any length.  The fuel given by the callers is
   shown to suffice: that is the termination argument of the Go loops. *)
From KV Require Import Base Model.
From Coq Require Import ZifyBool ZifyNat.

Lemma zlen_nonneg {A} (l : list A) : 0 <= zlen l.
Proof. unfold zlen; lia. Qed.

Lemma zlen_cons {A} (x : A) l : zlen (x :: l) = 1 + zlen l.
Proof. unfold zlen; cbn [length]; lia. Qed.

Lemma zlen_app {A} (a b : list A) : zlen (a ++ b) = zlen a + zlen b.
Proof. unfold zlen; rewrite app_length; lia. Qed.

Lemma zlen_map {A B} (f : A -> B) l : zlen (map f l) = zlen l.
Proof. unfold zlen; now rewrite map_length. Qed.

Lemma znth_some {A} (l : list A) i x : znth l i = Some x -> 0 <= i < zlen l.
Proof.
  unfold znth, zlen. destruct (i <? 0) eqn:E; [discriminate|].
  intros Hn. assert (Z.to_nat i < length l)%nat by (apply nth_error_Some; congruence). lia.
Qed.

Lemma znth_in_range {A} (l : list A) i : 0 <= i < zlen l -> exists x, znth l i = Some x.
Proof.
  unfold znth, zlen; intros Hi. destruct (i <? 0) eqn:E; [lia|].
  destruct (nth_error l (Z.to_nat i)) eqn:N; [eauto|].
  apply nth_error_None in N; lia.
Qed.

Lemma znth_none {A} (l : list A) i : ~ (0 <= i < zlen l) -> znth l i = None.
Proof.
  unfold znth, zlen; intros Hi. destruct (i <? 0) eqn:E; [reflexivity|].
  apply nth_error_None; lia.
Qed.

Lemma znth_nth_error {A} (l : list A) i x : znth l i = Some x -> nth_error l (Z.to_nat i) = Some x.
Proof. unfold znth. destruct (i <? 0); [discriminate|trivial]. Qed.

Lemma znth_in {A} (l : list A) i (x : A) : znth l i = Some x -> In x l.
Proof. intros Hi. apply znth_nth_error in Hi. eapply nth_error_In, Hi. Qed.

Lemma in_znth {A} (l : list A) (x : A) : In x l -> exists i, znth l i = Some x.
Proof.
  intros Hin. apply In_nth_error in Hin. destruct Hin as [n Hn]. exists (Z.of_nat n).
  unfold znth. destruct (Z.of_nat n <? 0) eqn:E; [lia|]. now rewrite Nat2Z.id.
Qed.

Lemma Forall_znth {A} (P : A -> Prop) (l : list A) i x : Forall P l -> znth l i = Some x -> P x.
Proof. intros HF Hi. apply znth_in in Hi. rewrite Forall_forall in HF. auto. Qed.

Lemma znth_map {A B} (f : A -> B) l i : znth (map f l) i = option_map f (znth l i).
Proof.
  unfold znth. destruct (i <? 0); [reflexivity|].
  generalize (Z.to_nat i) as n; intro n; revert l; induction n as [|n IH]; intros [|x l]; cbn; auto.
Qed.

Lemma znth_0 {A} (x : A) l : znth (x :: l) 0 = Some x.
Proof. reflexivity. Qed.

Lemma znth_cons_pos {A} (x : A) l i : 0 < i -> znth (x :: l) i = znth l (i - 1).
Proof.
  intros Hi; unfold znth. destruct (i <? 0) eqn:E1; [lia|]. destruct (i - 1 <? 0) eqn:E2; [lia|].
  replace (Z.to_nat i) with (S (Z.to_nat (i - 1))) by lia. reflexivity.
Qed.

Lemma znth_succ {A} (x : A) l i : 0 <= i -> znth (x :: l) (i + 1) = znth l i.
Proof. intros Hi. rewrite znth_cons_pos by lia. f_equal. lia. Qed.

Lemma znth_cons_some {A} (x : A) l i a : znth l i = Some a -> znth (x :: l) (i + 1) = Some a.
Proof. intros Hi. pose proof (znth_some _ _ _ Hi). now rewrite znth_succ by lia. Qed.

Lemma znth_last {A} (l : list A) (d : A) : l <> [] -> znth l (zlen l - 1) = Some (last l d).
Proof.
  induction l as [|x [|y l] IH]; [congruence|reflexivity|]. intros _.
  rewrite zlen_cons. replace (1 + zlen (y :: l) - 1) with (zlen (y :: l) - 1 + 1) by lia.
  rewrite znth_succ; [apply IH; discriminate|]. rewrite zlen_cons. pose proof (zlen_nonneg l). lia.
Qed.

Lemma znth_ends {A} (first : A) rest :
  let l := first :: rest in
  znth l 0 = Some first /\ znth l (zlen l - 1) = Some (last l first) /\ 0 <= zlen l - 1.
Proof.
  cbv zeta. split; [reflexivity|]. split; [apply znth_last; discriminate|].
  rewrite zlen_cons. pose proof (zlen_nonneg rest). lia.
Qed.

Lemma znth_split {A} (l : list A) i x :
  znth l i = Some x -> exists pre post, l = pre ++ x :: post /\ zlen pre = i.
Proof.
  intros Hi. pose proof (znth_some _ _ _ Hi) as Hr. apply znth_nth_error in Hi.
  apply nth_error_split in Hi. destruct Hi as (pre & post & -> & Hl).
  exists pre, post. split; [reflexivity|]. unfold zlen. lia.
Qed.

Lemma znth_app_r {A} (pre : list A) l j : 0 <= j -> znth (pre ++ l) (zlen pre + j) = znth l j.
Proof.
  intros Hj. unfold znth, zlen. destruct (Z.of_nat (length pre) + j <? 0) eqn:E1; [lia|].
  destruct (j <? 0) eqn:E2; [lia|].
  replace (Z.to_nat (Z.of_nat (length pre) + j)) with (length pre + Z.to_nat j)%nat by lia.
  now rewrite nth_error_app2, Nat.add_comm, Nat.add_sub by lia.
Qed.

Lemma znth_mid {A} (pre : list A) x post : znth (pre ++ x :: post) (zlen pre) = Some x.
Proof. rewrite <- (Z.add_0_r (zlen pre)), znth_app_r by lia. reflexivity. Qed.

Lemma znth_after {A} (pre : list A) x post j :
  0 <= j -> znth (pre ++ x :: post) (zlen pre + 1 + j) = znth post j.
Proof. intros Hj. rewrite <- Z.add_assoc, znth_app_r, znth_cons_pos by lia. f_equal. lia. Qed.

Lemma Forall2_znth {A B} (R : A -> B -> Prop) l l' i x :
  Forall2 R l l' -> znth l i = Some x -> exists y, znth l' i = Some y /\ R x y.
Proof.
  unfold znth. destruct (i <? 0); [discriminate|]. generalize (Z.to_nat i) as n. intros n HF. revert n.
  induction HF as [|a b l l' Hab HF IH]; intros [|n] Hn; try discriminate.
  - injection Hn as <-. exists b. split; [reflexivity|exact Hab].
  - apply IH. exact Hn.
Qed.

Lemma znth_under {A} (l : list A) n : (S n <= length l)%nat -> exists x, znth l (Z.of_nat n) = Some x.
Proof. intros Hn. apply znth_in_range. unfold zlen. lia. Qed.

Lemma firstn_succ_znth {A} (l : list A) n x : znth l (Z.of_nat n) = Some x -> firstn (S n) l = firstn n l ++ [x].
Proof.
  intros Hz. apply znth_nth_error in Hz. rewrite Nat2Z.id in Hz. revert l Hz.
  induction n as [|n IH]; intros [|y l] Hz; cbn in Hz; try discriminate.
  - injection Hz as ->. reflexivity.
  - cbn [firstn app]. f_equal. apply IH. exact Hz.
Qed.

Lemma skipn_znth {A} (l : list A) i x : znth l i = Some x -> skipn (Z.to_nat i) l = x :: skipn (Z.to_nat (i + 1)) l.
Proof.
  intros Hz. pose proof (znth_some _ _ _ Hz) as Hr. apply znth_nth_error in Hz.
  replace (Z.to_nat (i + 1)) with (S (Z.to_nat i)) by lia. generalize dependent (Z.to_nat i). clear Hr.
  intros n. revert l. induction n as [|n IH]; intros [|y l] Hz; cbn in Hz; try discriminate.
  - injection Hz as ->. reflexivity.
  - cbn [skipn]. apply IH. exact Hz.
Qed.

Lemma rec_size_pos v m : 28 <= rec_size v m.
Proof. unfold rec_size, rec_overhead. pose proof (zlen_nonneg (mkey m)). pose proof (zlen_nonneg (mval m)).
       destruct v; lia. Qed.

Lemma recs_size_nonneg v r : 0 <= recs_size v r.
Proof. induction r as [|x r IH]; cbn [recs_size]; [lia|]. pose proof (rec_size_pos v x). lia. Qed.

Definition sorted_lt (keys : list Z) : Prop :=
  forall i j a b, znth keys i = Some a -> znth keys j = Some b -> i < j -> a < b.

Definition sorted_le (keys : list Z) : Prop :=
  forall i j a b, znth keys i = Some a -> znth keys j = Some b -> i <= j -> a <= b.

Lemma sorted_lt_tail x l : sorted_lt (x :: l) -> sorted_lt l.
Proof.
  intros Hs i j a b Hi Hj Hij.
  apply (Hs (i + 1) (j + 1)); [apply znth_cons_some, Hi|apply znth_cons_some, Hj|lia].
Qed.

Lemma sorted_le_tail x l : sorted_le (x :: l) -> sorted_le l.
Proof.
  intros Hs i j a b Hi Hj Hij.
  apply (Hs (i + 1) (j + 1)); [apply znth_cons_some, Hi|apply znth_cons_some, Hj|lia].
Qed.

Lemma sorted_lt_le keys : sorted_lt keys -> sorted_le keys.
Proof.
  intros Hs i j a b Hi Hj Hij. destruct (Z.eq_dec i j) as [->|Hne].
  - rewrite Hi in Hj. injection Hj as ->. lia.
  - assert (a < b) by (apply (Hs i j); auto; lia). lia.
Qed.

Lemma sorted_lt_nil : sorted_lt [].
Proof. intros i j a b Hi. apply znth_some in Hi. change (zlen (@nil Z)) with 0 in Hi. lia. Qed.

Lemma sorted_lt_cons x l : (forall y, In y l -> x < y) -> sorted_lt l -> sorted_lt (x :: l).
Proof.
  intros Hx Hs i j a b Hi Hj Hij. pose proof (znth_some _ _ _ Hi). rewrite znth_cons_pos in Hj by lia.
  destruct (Z.eq_dec i 0) as [->|Hi0].
  - rewrite znth_0 in Hi. injection Hi as <-. apply Hx. eapply znth_in, Hj.
  - rewrite znth_cons_pos in Hi by lia. apply (Hs (i - 1) (j - 1)); auto; lia.
Qed.

Lemma sorted_lt_le_last keys d a : sorted_lt keys -> In a keys -> a <= last keys d.
Proof.
  intros Hs Hin. assert (Hne : keys <> []) by (intros ->; contradiction).
  destruct (in_znth _ _ Hin) as [i Hi]. pose proof (znth_some _ _ _ Hi).
  apply (sorted_lt_le _ Hs i (zlen keys - 1)); [exact Hi|apply znth_last; exact Hne|lia].
Qed.

Lemma sorted_lt_map {A} (key : A -> Z) l i j x y :
  sorted_lt (map key l) -> znth l i = Some x -> znth l j = Some y -> i < j -> key x < key y.
Proof. intros Hs Hi Hj. apply Hs; rewrite znth_map; [rewrite Hi|rewrite Hj]; reflexivity. Qed.

Lemma sorted_le_map {A} (key : A -> Z) l i j x y :
  sorted_le (map key l) -> znth l i = Some x -> znth l j = Some y -> i <= j -> key x <= key y.
Proof. intros Hs Hi Hj. apply Hs; rewrite znth_map; [rewrite Hi|rewrite Hj]; reflexivity. Qed.

(* what a bisection knows: keys left of b are below v, keys right of e are above v *)
Definition below {A} (key : A -> Z) (l : list A) (v b : Z) : Prop :=
  forall i x, 0 <= i < b -> znth l i = Some x -> key x < v.

Definition above {A} (key : A -> Z) (l : list A) (v e : Z) : Prop :=
  forall i x, e < i -> znth l i = Some x -> v < key x.

Lemma below_0 {A} (key : A -> Z) l v : below key l v 0.
Proof. intros i x Hi. lia. Qed.

Lemma above_end {A} (key : A -> Z) l v : above key l v (zlen l - 1).
Proof. intros i x Hi Hx. apply znth_some in Hx. lia. Qed.

Lemma below_step {A} (key : A -> Z) l v m x :
  sorted_le (map key l) -> znth l m = Some x -> key x < v -> below key l v (m + 1).
Proof.
  intros Hs Hx Hlt i y Hi Hy. assert (key y <= key x) by (apply (sorted_le_map key l i m); auto; lia). lia.
Qed.

Lemma above_step {A} (key : A -> Z) l v m x :
  sorted_le (map key l) -> znth l m = Some x -> v < key x -> above key l v (m - 1).
Proof.
  intros Hs Hx Hlt i y Hi Hy. assert (key x <= key y) by (apply (sorted_le_map key l m i); auto; lia). lia.
Qed.

Lemma sorted_lt_below {A} (key : A -> Z) l v r x :
  sorted_lt (map key l) -> znth l r = Some x -> key x <= v -> below key l v r.
Proof.
  intros Hs Hx Hle i y Hi Hy. assert (key y < key x) by (apply (sorted_lt_map key l i r); auto; lia). lia.
Qed.

Lemma below_le {A} (key : A -> Z) l v b k x : below key l v b -> znth l k = Some x -> v <= key x -> b <= k.
Proof.
  intros Hlo Hx Hge. destruct (Z_lt_le_dec k b) as [Hlt|]; [|assumption].
  pose proof (znth_some _ _ _ Hx). specialize (Hlo k x ltac:(lia) Hx). lia.
Qed.

Definition span (b e n : Z) (fuel : nat) : Prop :=
  0 <= b <= e + 1 /\ e < n /\ (Z.to_nat (e - b + 1) < fuel)%nat.

Lemma span_all {A} (l : list A) : span 0 (zlen l - 1) (zlen l) (S (length l)).
Proof. unfold span, zlen. lia. Qed.

Lemma span_narrow b e n f m :
  span b e n (S f) -> b <= m <= e -> 0 <= m < n /\ span (m + 1) e n f /\ span b (m - 1) n f.
Proof. unfold span. lia. Qed.

Lemma mid_bounds b e : b <= e -> b <= (b + e) / 2 <= e.
Proof. intros Hbe. Z.div_mod_to_equations. lia. Qed.

Lemma mid_bounds_lt i j : i < j -> i <= (i + j) / 2 <= j - 1.
Proof. intros Hij. Z.div_mod_to_equations. lia. Qed.

(* the loop of offset.go and segment/index.go, for any [loop] that unfolds this way; [test] is <= or < *)
Lemma three_way_search {A R} (key : A -> Z) (l : list A) (v : Z) (test : Z -> Z -> bool)
      (loop : nat -> Z -> Z -> R) (found : Z -> A -> R) (exit : Z -> Z -> R) (panic : R) (Q : R -> Prop) :
  (forall f b e, loop (S f) b e =
     if test b e then
       let mid := (b + e) / 2 in
       match znth l mid with
       | None => panic
       | Some x => if key x <? v then loop f (mid + 1) e
                   else if v <? key x then loop f b (mid - 1)
                   else found mid x
       end
     else exit b e) ->
  (forall b e, test b e = true -> b <= e) ->
  sorted_le (map key l) ->
  (forall m x, znth l m = Some x -> key x = v -> Q (found m x)) ->
  (forall b e, test b e = false -> 0 <= b <= e + 1 -> e < zlen l ->
               below key l v b -> above key l v e -> Q (exit b e)) ->
  forall fuel b e, span b e (zlen l) fuel -> below key l v b -> above key l v e -> Q (loop fuel b e).
Proof.
  intros Hloop Htest Hs Hfound Hexit.
  induction fuel as [|f IH]; intros b e Hsp Hlo Hhi; [destruct Hsp as (_ & _ & Hf); inversion Hf|].
  rewrite Hloop. destruct (test b e) eqn:Et; [|destruct Hsp as (Hbe & He & _); now apply Hexit].
  cbv zeta. destruct (span_narrow b e _ f _ Hsp (mid_bounds b e (Htest b e Et))) as (Hm & Hright & Hleft).
  destruct (znth_in_range l _ Hm) as [x Hx]. rewrite Hx.
  destruct (key x <? v) eqn:E1; [|destruct (v <? key x) eqn:E2].
  - apply IH; [exact Hright| |exact Hhi]. apply (below_step key l v _ x Hs Hx), Z.ltb_lt, E1.
  - apply IH; [exact Hleft|exact Hlo|]. apply (above_step key l v _ x Hs Hx), Z.ltb_lt, E2.
  - apply (Hfound _ x Hx), Z.le_antisymm; apply Z.ltb_ge; assumption.
Qed.

Lemma find_by_index {A} (f : A -> bool) (l : list A) (n : Z) (x : A) :
  znth l n = Some x -> f x = true ->
  (forall i y, 0 <= i < n -> znth l i = Some y -> f y = false) ->
  find f l = Some x.
Proof.
  revert n; induction l as [|a l IH]; intros n Hn Hx Hlt.
  - apply znth_some in Hn. unfold zlen in Hn. cbn in Hn. lia.
  - pose proof (znth_some _ _ _ Hn) as Hr. cbn [find]. destruct (Z.eq_dec n 0) as [->|Hne].
    + rewrite znth_0 in Hn. injection Hn as ->. now rewrite Hx.
    + rewrite (Hlt 0 a) by (try apply znth_0; lia).
      apply (IH (n - 1)); [rewrite <- znth_cons_pos with (x := a) by lia; exact Hn|exact Hx|].
      intros i y Hi Hy. apply (Hlt (i + 1)); [lia|apply znth_cons_some, Hy].
Qed.

Lemma find_none_by_index {A} (f : A -> bool) (l : list A) :
  (forall i y, znth l i = Some y -> f y = false) -> find f l = None.
Proof.
  induction l as [|a l IH]; intros Hall; [reflexivity|]. cbn [find].
  rewrite (Hall 0 a (znth_0 a l)). apply IH. intros i y Hy. apply (Hall (i + 1)), znth_cons_some, Hy.
Qed.

(* the shape of first_ge and first_ts_ge *)
Lemma find_ge_at {A} (key : A -> Z) l v r x :
  znth l r = Some x -> below key l v r -> v <= key x -> find (fun y => v <=? key y) l = Some x.
Proof.
  intros Hx Hlo Hge. apply (find_by_index _ l r); [exact Hx|lia|].
  intros i y Hi Hy. specialize (Hlo i y Hi Hy). lia.
Qed.

Definition offs_sorted (items : list item) : Prop := sorted_lt (map ioff items).

Definition first_ge (items : list item) (off : Z) : option item :=
  find (fun it => off <=? ioff it) items.

Definition is_relative (off : Z) : Prop := off = OffsetOldest \/ off = OffsetNewest.

Lemma not_relative off : ~ is_relative off -> (off =? OffsetOldest) = false /\ (off =? OffsetNewest) = false.
Proof. unfold is_relative. intros Hrel. split; apply Z.eqb_neq; tauto. Qed.

Theorem index_consume_spec items off :
  offs_sorted items -> ~ is_relative off ->
  match items with
  | [] => index_consume items off = Err EIdxEmpty
  | first :: _ =>
    let lst := last items first in
    if ioff lst <? off then index_consume items off = Err EAfterEnd
    else exists it, first_ge items off = Some it /\ index_consume items off = Ok (ipos it, ipos lst)
  end.
Proof.
  intros Hs Hrel. destruct items as [|first rest]; [reflexivity|].
  destruct (znth_ends first rest) as (H0 & Hlast & Hlen). unfold index_consume; cbv zeta.
  set (items := first :: rest) in *. set (lst := last items first) in *. clearbody lst items.
  pose proof (sorted_le_map ioff items _ _ _ _ (sorted_lt_le _ Hs) H0 Hlast Hlen) as Hfl.
  destruct (not_relative off Hrel) as [-> ->].
  destruct (off <=? ioff first) eqn:E3.
  { destruct (ioff lst <? off) eqn:E4; [lia|]. exists first. split; [|reflexivity].
    apply (find_ge_at ioff items off 0); [exact H0|apply below_0|lia]. }
  destruct (ioff lst <? off) eqn:E4; [reflexivity|].
  destruct (off =? ioff lst) eqn:E5.
  { exists lst. split; [|reflexivity].
    apply (find_ge_at ioff items off (zlen items - 1)); [exact Hlast| |lia].
    apply (sorted_lt_below ioff items off _ lst Hs Hlast). lia. }
  apply (three_way_search ioff items off Z.leb
           (fun f b e => bsearch_consume f items b e off (ipos lst)) (fun _ it => Ok (ipos it, ipos lst))
           (fun b _ => match znth items b with Some it => Ok (ipos it, ipos lst) | None => Err EPanic end)
           (Err EPanic)
           (fun r => exists it, first_ge items off = Some it /\ r = Ok (ipos it, ipos lst)));
    [reflexivity|exact Zle_bool_imp_le|exact (sorted_lt_le _ Hs)| | |apply span_all|apply below_0|apply above_end].
  - intros m it Hit Hk. exists it. split; [|reflexivity].
    apply (find_ge_at ioff items off m); [exact Hit| |lia]. apply (sorted_lt_below ioff items off m it Hs Hit). lia.
  - (* the loop ran out at b = e + 1; the last key is above off, so b is an index *)
    intros b e Et Hbe He Hlo Hhi.
    pose proof (below_le _ _ _ _ _ _ Hlo Hlast ltac:(lia)).
    destruct (znth_in_range items b) as [it Hit]; [lia|]. rewrite Hit. exists it. split; [|reflexivity].
    apply (find_ge_at ioff items off b); [exact Hit|exact Hlo|]. specialize (Hhi b it ltac:(lia) Hit). lia.
Qed.

Definition find_item (items : list item) (off : Z) : option item :=
  find (fun it => ioff it =? off) items.

Lemma find_item_unique items i it off :
  offs_sorted items -> znth items i = Some it -> ioff it = off -> find_item items off = Some it.
Proof.
  intros Hs Hi Ho. apply (find_by_index _ items i); [exact Hi|lia|].
  intros j y Hj Hy. pose proof (sorted_lt_map ioff items j i y it Hs Hy Hi). lia.
Qed.

Lemma find_item_none items off b e :
  below ioff items off b -> above ioff items off e -> e < b -> find_item items off = None.
Proof.
  intros Hlo Hhi Heb. apply find_none_by_index. intros i y Hy. pose proof (znth_some _ _ _ Hy).
  destruct (Z_lt_le_dec i b); [specialize (Hlo i y ltac:(lia) Hy)|specialize (Hhi i y ltac:(lia) Hy)]; lia.
Qed.

Theorem index_get_spec items off :
  offs_sorted items -> ~ is_relative off ->
  match items with
  | [] => index_get items off = Err EIdxEmpty
  | first :: _ =>
    let lst := last items first in
    if off <? ioff first then index_get items off = Err EBeforeStart
    else if ioff lst <? off then index_get items off = Err EAfterEnd
    else match find_item items off with
         | Some it => index_get items off = Ok (ipos it)
         | None => index_get items off = Err EOffNotFound
         end
  end.
Proof.
  intros Hs Hrel. destruct items as [|first rest]; [reflexivity|].
  destruct (znth_ends first rest) as (H0 & Hlast & Hlen). unfold index_get; cbv zeta.
  set (items := first :: rest) in *. set (lst := last items first) in *. clearbody lst items.
  pose proof (sorted_le_map ioff items _ _ _ _ (sorted_lt_le _ Hs) H0 Hlast Hlen) as Hfl.
  destruct (not_relative off Hrel) as [-> ->].
  destruct (off <? ioff first) eqn:E3; [reflexivity|].
  destruct (ioff lst <? off) eqn:E4.
  { destruct (off =? ioff first) eqn:E5; [lia|reflexivity]. }
  destruct (off =? ioff first) eqn:E5.
  { rewrite (find_item_unique items 0 first off Hs H0) by lia. reflexivity. }
  destruct (off =? ioff lst) eqn:E6.
  { rewrite (find_item_unique items _ lst off Hs Hlast) by lia. reflexivity. }
  apply (three_way_search ioff items off Z.leb
           (fun f b e => bsearch_get f items b e off) (fun _ it => Ok (ipos it))
           (fun _ _ => Err EOffNotFound) (Err EPanic)
           (fun r => match find_item items off with
                     | Some it => r = Ok (ipos it) | None => r = Err EOffNotFound end));
    [reflexivity|exact Zle_bool_imp_le|exact (sorted_lt_le _ Hs)| | |apply span_all|apply below_0|apply above_end].
  - intros m it Hit Hk. rewrite (find_item_unique items m it off Hs Hit Hk). reflexivity.
  - intros b e Et Hbe He Hlo Hhi. rewrite (find_item_none items off b e Hlo Hhi) by lia. reflexivity.
Qed.

Lemma index_consume_oldest first rest :
  index_consume (first :: rest) OffsetOldest = Ok (ipos first, ipos (last (first :: rest) first)).
Proof. reflexivity. Qed.

Lemma index_consume_newest first rest :
  index_consume (first :: rest) OffsetNewest =
  Ok (ipos (last (first :: rest) first), ipos (last (first :: rest) first)).
Proof. reflexivity. Qed.

Lemma index_get_oldest first rest : index_get (first :: rest) OffsetOldest = Ok (ipos first).
Proof. reflexivity. Qed.

Lemma index_get_newest first rest :
  index_get (first :: rest) OffsetNewest = Ok (ipos (last (first :: rest) first)).
Proof. reflexivity. Qed.

Definition ts_sorted (items : list item) : Prop := sorted_le (map its items).

(* sort.Search over the half-open [i, j): the answer r is the least index whose time is at least
   ts, written with the same two bounds (at least ts = above ts - 1, from r on = right of r - 1) *)
Lemma sort_search_spec fuel : forall items i j ts,
  ts_sorted items -> span i (j - 1) (zlen items) fuel ->
  below its items ts i -> above its items (ts - 1) (j - 1) ->
  exists r, sort_search fuel items i j ts = Ok r /\ 0 <= r /\
            below its items ts r /\ above its items (ts - 1) (r - 1).
Proof.
  induction fuel as [|f IH]; intros items i j ts Hs Hsp Hlo Hhi; [destruct Hsp as (_ & _ & Hf); inversion Hf|].
  cbn [sort_search]. destruct (i <? j) eqn:E.
  - apply Z.ltb_lt in E.
    destruct (span_narrow i (j - 1) _ f _ Hsp (mid_bounds_lt i j E)) as (Hh & Hright & Hleft).
    destruct (znth_in_range items _ Hh) as [it Hit]. rewrite Hit.
    destruct (ts <=? its it) eqn:E1.
    + apply IH; [exact Hs|exact Hleft|exact Hlo|]. apply (above_step its items _ _ it Hs Hit). lia.
    + apply IH; [exact Hs|exact Hright| |exact Hhi]. apply (below_step its items _ _ it Hs Hit). lia.
  - exists i. replace j with i in Hhi by (destruct Hsp; lia). destruct Hsp as ((Hi & _) & _). auto.
Qed.

Definition first_ts_ge (items : list item) (ts : Z) : option item :=
  find (fun it => ts <=? its it) items.

Theorem index_time_spec items ts :
  ts_sorted items ->
  match items with
  | [] => index_time items ts = Err ETimeEmpty
  | first :: _ =>
    let lst := last items first in
    if ts <? its first then index_time items ts = Err ETimeBefore
    else if its lst <? ts then index_time items ts = Err ETimeAfter
    else exists it, first_ts_ge items ts = Some it /\ index_time items ts = Ok (ipos it)
  end.
Proof.
  intros Hs. destruct items as [|first rest]; [reflexivity|].
  destruct (znth_ends first rest) as (H0 & Hlast & Hlen). unfold index_time; cbv zeta.
  set (items := first :: rest) in *. set (lst := last items first) in *. clearbody lst items.
  pose proof (sorted_le_map its items _ _ _ _ Hs H0 Hlast Hlen) as Hfl.
  destruct (ts <? its first) eqn:E1; [reflexivity|].
  destruct (its lst <? ts) eqn:E3.
  { destruct (ts =? its first) eqn:E2; [lia|reflexivity]. }
  destruct (ts =? its first) eqn:E2.
  { exists first. split; [|reflexivity]. apply (find_ge_at its items ts 0); [exact H0|apply below_0|lia]. }
  destruct (sort_search_spec (S (length items)) items 0 (zlen items) ts Hs) as (r & Hr & Hr0 & Hlo & Hhi);
    [apply span_all|apply below_0|apply above_end|].
  rewrite Hr. cbn [bind].
  pose proof (below_le _ _ _ _ _ _ Hlo Hlast ltac:(lia)).
  destruct (znth_in_range items r) as [it Hit]; [lia|]. rewrite Hit. exists it. split; [|reflexivity].
  apply (find_ge_at its items ts r); [exact Hit|exact Hlo|]. specialize (Hhi r it ltac:(lia) Hit). lia.
Qed.

(* segment.Consume / segment.Get: "for begin < end" with a correction after the loop *)
Lemma bsearch_seg_spec bases off k0 kl :
  sorted_lt bases -> znth bases 0 = Some k0 -> k0 < off -> znth bases (zlen bases - 1) = Some kl -> off < kl ->
  exists r b, bsearch_seg (S (length bases)) bases 0 (zlen bases - 1) off = Ok r /\
              znth bases r = Some b /\ b <= off /\ forall j c, r < j -> znth bases j = Some c -> off < c.
Proof.
  intros Hs Hk0 Hfirst Hkl Hlast.
  apply (three_way_search (fun k => k) bases off Z.ltb
           (fun f b e => bsearch_seg f bases b e off) (fun m _ => Ok m)
           (fun b _ => match znth bases b with
                       | None => Err EPanic
                       | Some bb => if off <? bb then (if b - 1 <? 0 then Err EPanic else Ok (b - 1)) else Ok b
                       end)
           (Err EPanic)
           (fun res => exists r b, res = Ok r /\ znth bases r = Some b /\ b <= off /\
                                   forall j c, r < j -> znth bases j = Some c -> off < c));
    [reflexivity|intros; lia|rewrite map_id; exact (sorted_lt_le _ Hs)| | |apply span_all|apply below_0|apply above_end].
  - intros m k Hk Hko. cbv beta in Hko. exists m, k. split; [reflexivity|]. split; [exact Hk|]. split; [lia|].
    intros j c Hj Hc. rewrite <- Hko. exact (Hs m j k c Hk Hc Hj).
  - (* the loop stopped at b = e or b = e + 1; base b decides between b and b - 1 *)
    intros b e Et Hbe He Hlo Hhi.
    pose proof (below_le _ _ _ _ _ _ Hlo Hkl (Z.lt_le_incl _ _ Hlast)). cbv beta delta [below above] in Hlo, Hhi.
    destruct (znth_in_range bases b) as [bb Hbb]; [lia|]. rewrite Hbb.
    destruct (off <? bb) eqn:E3.
    + assert (b <> 0) by (intros ->; rewrite Hk0 in Hbb; injection Hbb as <-; lia).
      destruct (b - 1 <? 0) eqn:E4; [lia|].
      destruct (znth_in_range bases (b - 1)) as [c Hc]; [lia|].
      exists (b - 1), c. split; [reflexivity|]. split; [exact Hc|]. split; [specialize (Hlo (b - 1) c ltac:(lia) Hc); lia|].
      intros j d Hj Hd. destruct (Z.eq_dec j b) as [->|Hne]; [replace d with bb by congruence; lia|].
      apply (Hhi j d); [lia|exact Hd].
    + exists b, bb. split; [reflexivity|]. split; [exact Hbb|]. split; [lia|].
      intros j d Hj Hd. apply (Hhi j d); [lia|exact Hd].
Qed.
