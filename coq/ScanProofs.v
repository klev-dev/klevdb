(* ScanProofs.v — the `for offset := OffsetOldest; offset < max && cond; Consume(offset, 32)` loop of the
   trim and compaction helpers (C15, C16): Consume makes progress until the log is exhausted, and a
   Hoare-style rule for the loop that holds for every way Consume may cut the log into batches (scan_rule_aux).
   The last section is the scan of C01: the same loop without a bound, collecting what it reads. *)
From KV Require Import Base Model Helpers ListAux Spec LogInv AbsFacts ConsumeProofs ReadsPreserve.
From Coq Require Import ZifyBool ZifyNat.

Section ScanProofs.
Variable H : bytes -> Z.

Theorem log_consume_empty_at_end st off max st1 n :
  Inv st -> 1 <= max -> off <> OffsetNewest ->
  log_consume H st off max = Ok (st1, (n, [])) -> from_off (live (abs st)) off = [].
Proof.
  intros HInv Hmax Hnew E. pose proof (log_consume_exact H st off max HInv Hmax Hnew) as Hx.
  rewrite E in Hx. apply Hx.
Qed.

Lemma inner_ext {A} (step step' : A -> msg -> A * brk) :
  (forall a m, step a m = step' a m) -> forall ms acc, inner step acc ms = inner step' acc ms.
Proof.
  intros He. induction ms as [|m r IH]; intros acc; [reflexivity|]. cbn [inner]. rewrite He.
  destruct (step' acc m) as [a [ | | ]]; [apply IH|reflexivity|reflexivity].
Qed.

Lemma scan_loop_ext {A} (step step' : A -> msg -> A * brk) cond :
  (forall a m, step a m = step' a m) ->
  forall fuel st off maxoff acc, scan_loop H fuel st off maxoff acc cond step = scan_loop H fuel st off maxoff acc cond step'.
Proof.
  intros He. induction fuel as [|f IH]; intros st off maxoff acc; [reflexivity|]. cbn [scan_loop].
  destruct ((off <? maxoff) && cond acc); [|reflexivity].
  destruct (log_consume H st off 32) as [[st1 [nxt ms]]|]; [|reflexivity]. cbn [bind].
  rewrite (inner_ext step step' He). destruct (inner step' acc ms) as [a [ | | ]]; [apply IH|apply IH|reflexivity].
Qed.

Theorem log_consume_preserves st off max st1 o :
  Inv st -> log_consume H st off max = Ok (st1, o) -> Inv st1 /\ abs st1 = abs st.
Proof.
  intros HI E. destruct (rebuilds_preserve H st st1 HI (log_consume_rebuilds H _ _ _ _ _ E)) as (HI1 & HA1 & _).
  split; assumption.
Qed.

Lemma scan_loop_opened {A} (step : A -> msg -> A * brk) cond : forall fuel st off maxoff acc st' a,
  Inv st -> scan_loop H fuel st off maxoff acc cond step = Ok (st', a) -> opened st' = opened st /\ Inv st' /\ abs st' = abs st.
Proof.
  induction fuel as [|f IH]; intros st off maxoff acc st' a HI E; [discriminate|]. cbn [scan_loop] in E.
  destruct ((off <? maxoff) && cond acc); [|injection E as <- <-; split; [reflexivity|split; [assumption|reflexivity]]].
  destruct (log_consume H st off 32) as [[st1 [nxt ms]]|] eqn:Ec; [|discriminate]. cbn [bind] in E.
  destruct (rebuilds_preserve H st st1 HI (log_consume_rebuilds H _ _ _ _ _ Ec)) as (HI1 & HA1 & Ho1).
  destruct (inner step acc ms) as [a1 [ | | ]]; [| |injection E as <- <-; split; [assumption|split; assumption]].
  all: destruct (IH _ _ _ _ _ _ HI1 E) as (Ho & HI' & HA'); split; [congruence|split; [assumption|congruence]].
Qed.

Lemma from_off_suffix L off :
  inc L -> exists pre, L = pre ++ from_off L off /\ forall x, In x pre -> moff x < off.
Proof.
  intros Hi. unfold from_off. destruct (off <? 0) eqn:E; [exists []; split; [reflexivity|intros x []]|].
  induction L as [|m r IH]; [exists []; split; [reflexivity|intros x []]|].
  destruct Hi as [Hm Hr]. cbn [filter]. destruct (off <=? moff m) eqn:E1.
  - exists []. split; [|intros x []]. cbn [app]. apply (f_equal (cons m)). symmetry. apply filter_all_true.
    intros x Hx. specialize (Hm x Hx). lia.
  - destruct (IH Hr) as (pre & Hp & Hlt).
    exists (m :: pre). split; [cbn [app]; f_equal; exact Hp|]. intros x [->|Hx]; [lia|now apply Hlt].
Qed.

Lemma last_opt_in' {A} (l : list A) x : last_opt l = Some x -> In x l.
Proof. apply last_opt_in. Qed.

Lemma from_off_advance L off ms rest m :
  inc L -> (forall x, In x L -> 0 <= moff x) ->
  from_off L off = ms ++ rest -> last_opt ms = Some m -> from_off L (moff m + 1) = rest.
Proof.
  intros Hi Hnn Hf Hl. destruct (from_off_suffix L off Hi) as (pre & HL & Hpre). rewrite Hf in HL.
  pose proof (Hnn m ltac:(rewrite HL; apply in_or_app; right; apply in_or_app; left; now apply last_opt_in)) as Hm0.
  unfold from_off. destruct (moff m + 1 <? 0) eqn:E; [lia|]. rewrite HL.
  rewrite HL in Hi. destruct (inc_app_inv _ _ Hi) as (_ & Hi2 & Hcross1). destruct (inc_app_inv _ _ Hi2) as (Hims & _ & Hcross2).
  rewrite !filter_app.
  rewrite (filter_all_false _ pre).
  2:{ intros x Hx. pose proof (Hcross1 x m Hx ltac:(apply in_or_app; left; now apply last_opt_in)). lia. }
  rewrite (filter_all_false _ ms).
  2:{ intros x Hx. pose proof (inc_le_last ms m x Hims Hl Hx). lia. }
  rewrite (filter_all_true _ rest).
  2:{ intros y Hy. pose proof (Hcross2 m y (last_opt_in _ _ Hl) Hy). lia. }
  reflexivity.
Qed.

Lemma consume_step st off max :
  Inv st -> 1 <= max -> off <= anext (abs st) -> off <> OffsetNewest ->
  exists st1 n ms rest, log_consume H st off max = Ok (st1, (n, ms)) /\ Inv st1 /\ abs st1 = abs st /\
    from_off (live (abs st)) off = ms ++ rest /\
    match last_opt ms with
    | None => rest = [] /\ n = anext (abs st)
    | Some m => n = moff m + 1 /\ from_off (live (abs st)) n = rest /\ n <= anext (abs st) /\ n <> OffsetNewest
    end.
Proof.
  intros HI Hmax Hle Hnew. pose proof (log_consume_exact H st off max HI Hmax Hnew) as Hx.
  destruct (log_consume H st off max) as [[st1 [n ms]]|e] eqn:E; cbn [obs_consume] in Hx; [|lia].
  destruct (log_consume_preserves st off max st1 _ HI E) as [HI1 HA1].
  destruct ms as [|m0 mr].
  - destruct Hx as (Hfrom & _ & ->). exists st1, (anext (abs st)), [], [].
    split; [reflexivity|]. split; [exact HI1|]. split; [exact HA1|]. split; [exact Hfrom|]. split; reflexivity.
  - destruct Hx as (rest & m & Hfrom & _ & Hl & ->). exists st1, (moff m + 1), (m0 :: mr), rest.
    split; [reflexivity|]. split; [exact HI1|]. split; [exact HA1|]. split; [exact Hfrom|]. rewrite Hl.
    destruct (from_off_in st off m HI) as [Hm _];
      [rewrite Hfrom; apply in_or_app; left; now apply last_opt_in|].
    pose proof (live_nonneg st m HI Hm). pose proof (abs_offsets_below_next st m HI Hm).
    split; [reflexivity|]. split; [|split; [lia|unfold OffsetNewest; lia]].
    exact (from_off_advance _ off (m0 :: mr) rest m (live_inc st HI) (fun x => live_nonneg st x HI) Hfrom Hl).
Qed.

Section Rule.
Context {A : Type}.
Variables (I : A -> list msg -> Prop) (Post : A -> Prop) (cond : A -> bool) (step : A -> msg -> A * brk) (maxoff : Z).
Variable L : list msg.

Hypothesis Hchunk : forall acc done chunk rest,
  I acc done -> L = done ++ chunk ++ rest -> chunk <> [] -> cond acc = true ->
  match inner step acc chunk with
  | (a, Continue) => I a (done ++ chunk)
  | (a, BreakInner) => Post a /\ (cond a = false \/ forall x, last_opt chunk = Some x -> maxoff <= moff x + 1)
  | (a, BreakOuter) => Post a
  end.

Hypothesis Hexit : forall acc done rest,
  I acc done -> L = done ++ rest -> (cond acc = false \/ forall m, In m rest -> maxoff <= moff m) -> Post acc.

Lemma scan_rule_aux : forall fuel st off acc done R,
  Inv st -> live (abs st) = L -> L = done ++ R -> from_off L off = R ->
  off <= anext (abs st) -> off <> OffsetNewest -> maxoff <= anext (abs st) ->
  (length R + 2 <= fuel)%nat -> I acc done ->
  exists st' a, scan_loop H fuel st off maxoff acc cond step = Ok (st', a) /\ Post a /\
                Inv st' /\ abs st' = abs st.
Proof.
  induction fuel as [|f IH]; intros st off acc done R HI HL Hsplit Hfrom Hoff Hnew Hmax Hfuel Hinv; [lia|].
  cbn [scan_loop]. destruct ((off <? maxoff) && cond acc) eqn:Econt.
  - apply andb_prop in Econt. destruct Econt as [Eoff Econd].
    destruct (consume_step st off 32 HI ltac:(lia) Hoff Hnew) as (st1 & n & ms & rest & E & HI1 & HA1 & HR & Hn).
    rewrite E. cbn [bind]. rewrite HL in HR, Hn. subst R. rewrite HR in Hsplit, Hfuel.
    destruct (last_opt ms) as [m|] eqn:Hl.
    + destruct Hn as (-> & Hadv & Hle & Hnn).
      assert (Hms : ms <> []) by (intros ->; discriminate).
      pose proof (Hchunk acc done ms rest Hinv Hsplit Hms Econd) as Hc.
      pose proof (length_app_lt ms rest m Hl) as Hlen.
      destruct (inner step acc ms) as [a [ | | ]].
      * (* the whole batch was processed: continue behind it *)
        rewrite <- HA1. apply (IH st1 (moff m + 1) a (done ++ ms) rest HI1); rewrite ?HA1; try assumption; [|lia].
        now rewrite <- app_assoc.
      * (* inner break: the loop test fails next *)
        destruct Hc as [Hpost Hstop]. destruct f as [|f']; [lia|]. cbn [scan_loop].
        replace ((moff m + 1 <? maxoff) && cond a) with false.
        -- exists st1, a. split; [reflexivity|]. split; [exact Hpost|split; assumption].
        -- destruct Hstop as [->|Hmo]; [now rewrite andb_false_r|]. specialize (Hmo m Hl). lia.
      * exists st1, a. split; [reflexivity|]. split; [exact Hc|split; assumption].
    + (* nothing left: the next test of the loop fails *)
      destruct Hn as (-> & ->). apply last_opt_none in Hl. subst ms.
      cbn [inner]. destruct f as [|f']; [lia|]. cbn [scan_loop].
      replace (anext (abs st) <? maxoff) with false by lia. cbn [andb].
      exists st1, acc. split; [reflexivity|]. split; [|split; assumption].
      apply (Hexit acc done [] Hinv Hsplit). right. intros x [].
  - exists st, acc. split; [reflexivity|]. split; [|split; [exact HI|reflexivity]].
    apply (Hexit acc done R Hinv Hsplit). apply andb_false_iff in Econt. destruct Econt as [Eoff|Econd]; [right|left; exact Econd].
    intros x Hx. rewrite <- Hfrom, <- HL in Hx. destruct (from_off_in st off x HI Hx). lia.
Qed.

Lemma scan_rule fuel st acc :
  Inv st -> live (abs st) = L -> maxoff <= anext (abs st) -> (length L + 2 <= fuel)%nat -> I acc [] ->
  exists st' a, scan_loop H fuel st OffsetOldest maxoff acc cond step = Ok (st', a) /\ Post a /\
                Inv st' /\ abs st' = abs st.
Proof.
  intros HI HL Hmax Hfuel Hinv. pose proof (anext_nonneg st HI).
  apply (scan_rule_aux fuel st OffsetOldest acc [] L); try assumption;
    [reflexivity|reflexivity|unfold OffsetOldest; lia|discriminate].
Qed.

End Rule.

End ScanProofs.

(* C01/C03: feeding the returned offset back, from OffsetOldest, visits every live message exactly once,
   in order, and stops at NextOffset *)
Section FullScan.
Variable H : bytes -> Z.

Lemma full_scan_from max : 1 <= max -> forall fuel st off acc,
  Inv st -> off <= anext (abs st) -> off <> OffsetNewest ->
  (length (from_off (live (abs st)) off) + 1 < fuel)%nat ->
  exists st', full_scan H fuel st off max acc = Ok (st', acc ++ from_off (live (abs st)) off, anext (abs st)) /\
              Inv st' /\ abs st' = abs st.
Proof.
  intros Hmax. induction fuel as [|f IH]; intros st off acc HI Hoff Hnew Hfuel; [lia|].
  cbn [full_scan].
  destruct (consume_step H st off max HI Hmax Hoff Hnew) as (st1 & n & ms & rest & E & HI1 & HA1 & HR & Hn).
  rewrite E. cbn [bind]. rewrite HR in Hfuel |- *.
  destruct (last_opt ms) as [m|] eqn:Hl.
  - destruct Hn as (-> & Hadv & Hle & Hnn). pose proof (length_app_lt ms rest m Hl) as Hlen.
    destruct (IH st1 (moff m + 1) (acc ++ ms) HI1) as (st' & E' & HI' & HA'); rewrite ?HA1, ?Hadv; try assumption; [lia|].
    exists st'. destruct ms as [|m0 mr]; [discriminate|]. rewrite E', HA1, Hadv, app_assoc.
    split; [reflexivity|]. split; [exact HI'|congruence].
  - destruct Hn as (-> & ->). apply last_opt_none in Hl. subst ms. exists st1. rewrite app_nil_r. auto.
Qed.

Theorem full_scan_correct st max :
  Inv st -> 1 <= max ->
  exists st', full_scan H (S (S (length (live (abs st))))) st OffsetOldest max [] = Ok (st', live (abs st), anext (abs st)) /\
              Inv st' /\ abs st' = abs st.
Proof.
  intros HI Hmax. pose proof (anext_nonneg st HI) as Hnx.
  apply (full_scan_from max Hmax (S (S (length (live (abs st))))) st OffsetOldest [] HI).
  - unfold OffsetOldest. lia.
  - discriminate.
  - change (from_off (live (abs st)) OffsetOldest) with (live (abs st)). lia.
Qed.

End FullScan.
