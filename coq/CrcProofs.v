(* C14: CRC-32C, as computed by Codec.crc32c, tells apart any two byte strings that differ in exactly one byte (in
   particular by one flipped bit).  The register update is injective on 32-bit values: the top bit of the result says
   whether the polynomial was xored in, so the step can be undone. *)
From KV Require Import Base Model ListAux Codec CodecProofs.
From Coq Require Import ZifyBool ZifyNat ZifyN.

Local Open Scope N_scope.

Definition w32 (c : N) : Prop := c < 2 ^ 32.

Lemma lt_pow2_shiftr a n : a < 2 ^ n <-> N.shiftr a n = 0.
Proof. rewrite N.shiftr_div_pow2. symmetry. apply N.div_small_iff, N.pow_nonzero. discriminate. Qed.

Lemma lxor_lt a b n : a < 2 ^ n -> b < 2 ^ n -> N.lxor a b < 2 ^ n.
Proof. rewrite !lt_pow2_shiftr, N.shiftr_lxor. intros -> ->. reflexivity. Qed.

Lemma lxor_w32 a b : w32 a -> w32 b -> w32 (N.lxor a b).
Proof. apply lxor_lt. Qed.

Lemma testbit_high a n : a < 2 ^ n -> N.testbit a n = false.
Proof. intros Ha. apply lt_pow2_shiftr in Ha. rewrite <- (N.add_0_l n), <- N.shiftr_spec', Ha. apply N.bits_0. Qed.

Lemma shiftr1_lt c : w32 c -> N.shiftr c 1 < 2 ^ 31.
Proof. unfold w32. rewrite !lt_pow2_shiftr, N.shiftr_shiftr. exact (fun E => E). Qed.

Lemma crc_step_w32 c : w32 c -> w32 (crc_step c).
Proof.
  intros Hc. pose proof (shiftr1_lt c Hc) as Hs. unfold crc_step. destruct (N.odd c).
  - apply lxor_w32; [unfold w32; change (2 ^ 32) with (2 * 2 ^ 31); lia|reflexivity].
  - unfold w32. change (2 ^ 32) with (2 * 2 ^ 31). lia.
Qed.

Lemma lxor_cancel_r a b p : N.lxor a p = N.lxor b p -> a = b.
Proof.
  intros E. assert (E2 : N.lxor (N.lxor a p) p = N.lxor (N.lxor b p) p) by now rewrite E.
  now rewrite !N.lxor_assoc, !N.lxor_nilpotent, !N.lxor_0_r in E2.
Qed.

Lemma top_bit_of_step c : w32 c -> N.testbit (crc_step c) 31 = N.odd c.
Proof.
  intros Hc. pose proof (shiftr1_lt c Hc) as Hs. unfold crc_step. destruct (N.odd c).
  - rewrite N.lxor_spec, (testbit_high _ 31 Hs). reflexivity.
  - apply testbit_high. exact Hs.
Qed.

Lemma half_odd_eq a b : N.shiftr a 1 = N.shiftr b 1 -> N.odd a = N.odd b -> a = b.
Proof. rewrite <- !N.div2_spec. intros Hh Ho. rewrite (N.div2_odd a), (N.div2_odd b), Hh, Ho. reflexivity. Qed.

Lemma crc_step_inj a b : w32 a -> w32 b -> crc_step a = crc_step b -> a = b.
Proof.
  intros Ha Hb E.
  assert (Ho : N.odd a = N.odd b) by (rewrite <- (top_bit_of_step a Ha), <- (top_bit_of_step b Hb); now rewrite E).
  apply half_odd_eq; [|exact Ho]. unfold crc_step in E. rewrite <- Ho in E. destruct (N.odd a); [now apply lxor_cancel_r in E|exact E].
Qed.

(* the maps are kept folded (inj32_ext): the kernel compares two unfolded towers of crc_step very slowly *)
Definition inj32 (f : N -> N) : Prop :=
  (forall a, w32 a -> w32 (f a)) /\ (forall a b, w32 a -> w32 b -> f a = f b -> a = b).

Lemma inj32_id : inj32 (fun c => c).
Proof. split; [trivial|]. intros a b _ _ E. exact E. Qed.

Lemma inj32_comp f g : inj32 f -> inj32 g -> inj32 (fun c => f (g c)).
Proof.
  intros [Fw Fi] [Gw Gi]. split; [intros a Ha; apply Fw, Gw, Ha|].
  intros a b Ha Hb E. apply Fi in E; [|now apply Gw|now apply Gw]. now apply Gi.
Qed.

Lemma inj32_ext f g : (forall c, g c = f c) -> inj32 f -> inj32 g.
Proof.
  intros Hfg [Fw Fi]. split; [intros a Ha; rewrite Hfg; now apply Fw|].
  intros a b Ha Hb. rewrite !Hfg. now apply Fi.
Qed.

Lemma inj32_iter f n : inj32 f -> inj32 (Nat.iter n f).
Proof. intros Hf. induction n as [|n IH]; [exact inj32_id|exact (inj32_comp f (Nat.iter n f) Hf IH)]. Qed.

Lemma inj32_lxor b : w32 b -> inj32 (fun c => N.lxor c b).
Proof. intros Hb. split; [intros a Ha; now apply lxor_w32|]. intros a a' _ _. apply lxor_cancel_r. Qed.

Definition step8 (c : N) : N := crc_step (crc_step (crc_step (crc_step (crc_step (crc_step (crc_step (crc_step c))))))).

Lemma step8_iter c : step8 c = Nat.iter 8 crc_step c.
Proof. unfold step8. cbn [Nat.iter nat_rect]. reflexivity. Qed.

Lemma inj32_step8 : inj32 step8.
Proof. exact (inj32_ext _ _ step8_iter (inj32_iter crc_step 8 (conj crc_step_w32 crc_step_inj))). Qed.

Lemma crc_byte_step8 c b : crc_byte c b = step8 (N.lxor c b).
Proof. unfold crc_byte, step8. reflexivity. Qed.

Lemma byte_w32 b : b < 256 -> w32 b.
Proof. unfold w32. intros Hb. change (2 ^ 32) with 4294967296. lia. Qed.

Lemma inj32_crc_byte b : b < 256 -> inj32 (fun c => crc_byte c b).
Proof.
  intros Hb. apply (inj32_ext (fun c => step8 (N.lxor c b))); [intros c; apply crc_byte_step8|].
  exact (inj32_comp step8 _ inj32_step8 (inj32_lxor b (byte_w32 b Hb))).
Qed.

Definition small (l : list N) : Prop := Forall (fun x => x < 256) l.

Lemma inj32_fold l : small l -> inj32 (fun c => fold_left crc_byte l c).
Proof.
  induction 1 as [|x l Hx _ IH]; [exact inj32_id|].
  apply (inj32_ext (fun c => fold_left crc_byte l (crc_byte c x))); [intros c; apply fold_left_cons|].
  exact (inj32_comp _ _ IH (inj32_crc_byte x Hx)).
Qed.

Lemma mask_w32 : w32 crc_mask.
Proof. reflexivity. Qed.

Lemma fold_w32 l : small l -> w32 (fold_left crc_byte l crc_mask).
Proof. intros Hl. exact (proj1 (inj32_fold l Hl) crc_mask mask_w32). Qed.

Theorem crc32c_one_byte pre a a' post :
  small pre -> small post -> a < 256 -> a' < 256 -> a <> a' ->
  crc32c (pre ++ a :: post) <> crc32c (pre ++ a' :: post).
Proof.
  intros Hpre Hpost Ha Ha' Hne E. unfold crc32c in E. apply N2Z.inj, lxor_cancel_r in E.
  rewrite !fold_left_app, !fold_left_cons, !crc_byte_step8 in E. pose proof (fold_w32 pre Hpre) as Hs.
  apply (proj2 (inj32_comp _ _ (inj32_fold post Hpost) inj32_step8)) in E; [|apply lxor_w32; [exact Hs|now apply byte_w32]..].
  rewrite !(N.lxor_comm (fold_left crc_byte pre crc_mask)) in E. now apply lxor_cancel_r in E.
Qed.

Local Close Scope N_scope.

Definition differ_at_one (x y : bytes) : Prop :=
  exists pre a a' post, x = pre ++ a :: post /\ y = pre ++ a' :: post /\ a <> a'.

Lemma small_ok l : bytes_ok l <-> small l.
Proof. reflexivity. Qed.

Lemma crc32c_w32 l : bytes_ok l -> 0 <= crc32c l < 4294967296.
Proof.
  intros Hl. unfold crc32c. pose proof (lxor_w32 _ _ (fold_w32 l Hl) mask_w32) as Hw. unfold w32 in Hw.
  change (2 ^ 32)%N with 4294967296%N in Hw. lia.
Qed.

Lemma be4_inj x y : 0 <= x < 4294967296 -> 0 <= y < 4294967296 -> be 4 x = be 4 y -> x = y.
Proof.
  intros Hx Hy E. assert (E2 : debe (be 4 x) = debe (be 4 y)) by now rewrite E. rewrite !debe_be in E2.
  change (256 ^ Z.of_nat 4) with 4294967296 in E2. rewrite !Z.mod_small in E2 by assumption. exact E2.
Qed.

Lemma bytes_ok_app_inv (a b : bytes) : bytes_ok (a ++ b) -> bytes_ok a /\ bytes_ok b.
Proof. unfold bytes_ok. apply Forall_app. Qed.

(* two valid V2 records never differ only in a window that lies inside the checksum field or behind it, if the
   checksum tells the checksummed parts apart *)
Lemma v2_records_window m m' pre w w' post :
  bytes_ok (enc_rec crc32c V2 m) -> bytes_ok (enc_rec crc32c V2 m') ->
  enc_rec crc32c V2 m = pre ++ w ++ post -> enc_rec crc32c V2 m' = pre ++ w' ++ post -> length w = length w' ->
  (length pre + length w <= 4)%nat \/ (4 <= length pre)%nat ->
  (forall p, bytes_ok p -> bytes_ok w -> bytes_ok w' -> bytes_ok post ->
             crc32c (p ++ w ++ post) = crc32c (p ++ w' ++ post) -> w = w') ->
  w = w'.
Proof.
  cbn [enc_rec]. set (body := be 8 (moff m) ++ be 8 (mtime m) ++ be 4 (zlen (mkey m)) ++ be 4 (zlen (mval m)) ++ mkey m ++ mval m ++ trailer).
  set (body' := be 8 (moff m') ++ be 8 (mtime m') ++ be 4 (zlen (mkey m')) ++ be 4 (zlen (mval m')) ++ mkey m' ++ mval m' ++ trailer).
  intros Hok Hok' E E' Lw Hwhere Hcrc.
  destruct (bytes_ok_app_inv _ _ Hok) as [_ Hb]. destruct (bytes_ok_app_inv _ _ Hok') as [_ Hb'].
  destruct (field_or_rest 4 _ _ _ _ _ _ _ _ (be_length 4 _) (be_length 4 _) Lw E E') as [Hin Hbehind].
  destruct Hwhere as [Hw|Hw].
  - (* the window lies in the checksum field: the bodies are equal, hence the whole records *)
    rewrite <- (Hin Hw), E in E'. apply app_inv_head in E'. now apply app_inv_tail in E'.
  - (* the window lies in the checksummed part: the checksum fields are equal, the bodies a window apart *)
    destruct (Hbehind Hw) as (Ec & Eb & Eb').
    apply be4_inj in Ec; [|now apply crc32c_w32..]. rewrite Eb, Eb' in Ec. rewrite Eb in Hb. rewrite Eb' in Hb'.
    destruct (bytes_ok_app_inv _ _ Hb) as [Hp Hwp]. destruct (bytes_ok_app_inv _ _ Hwp) as [Hw1 Hpost].
    destruct (bytes_ok_app_inv _ _ Hb') as [_ Hwp']. destruct (bytes_ok_app_inv _ _ Hwp') as [Hw1' _].
    exact (Hcrc _ Hp Hw1 Hw1' Hpost Ec).
Qed.

Theorem v2_records_never_one_byte_apart m m' :
  bytes_ok (enc_rec crc32c V2 m) -> bytes_ok (enc_rec crc32c V2 m') ->
  differ_at_one (enc_rec crc32c V2 m) (enc_rec crc32c V2 m') -> False.
Proof.
  intros Hok Hok' (pre & a & a' & post & E & E' & Hne). apply Hne.
  enough (Eaa : [a] = [a']) by now injection Eaa.
  apply (v2_records_window m m' pre [a] [a'] post Hok Hok' E E' eq_refl); [cbn [length]; lia|].
  intros p Hp Ha Ha' Hpost Ec. exfalso. inversion Ha; subst. inversion Ha'; subst.
  exact (crc32c_one_byte p a a' post Hp Hpost ltac:(assumption) ltac:(assumption) Hne Ec).
Qed.

Lemma damage_detected (D : bytes -> bytes -> Prop) :
  (forall m m', bytes_ok (enc_rec crc32c V2 m) -> bytes_ok (enc_rec crc32c V2 m') ->
                D (enc_rec crc32c V2 m) (enc_rec crc32c V2 m') -> False) ->
  forall b' pos m, bytes_ok b' -> 0 <= pos -> bytes_ok (enc_rec crc32c V2 m) ->
  D (enc_rec crc32c V2 m) (sub b' pos (rec_size V2 m)) ->
  forall m' nxt, read_rec crc32c V2 b' pos = Ok (m', nxt) -> rec_size V2 m' <> rec_size V2 m.
Proof.
  intros HD b' pos m Hok Hpos Hm Hd m' nxt Hr Hsz.
  destruct (read_rec_v2_sound crc32c b' pos m' nxt Hok Hpos Hr) as [_ Henc]. rewrite Hsz in Henc.
  rewrite Henc in Hd. apply (HD m m' Hm); [|exact Hd]. rewrite <- Henc. now apply bytes_ok_sub.
Qed.

(* a record damaged in exactly one byte is never read back with its size unchanged - neither as the original message
   nor as any other.  (So the read fails unless the damaged byte lies in a length field; not stated here.) *)
Theorem single_byte_damage_detected b' pos m :
  bytes_ok b' -> 0 <= pos -> bytes_ok (enc_rec crc32c V2 m) ->
  differ_at_one (enc_rec crc32c V2 m) (sub b' pos (rec_size V2 m)) ->
  forall m' nxt, read_rec crc32c V2 b' pos = Ok (m', nxt) -> rec_size V2 m' <> rec_size V2 m.
Proof. exact (damage_detected differ_at_one v2_records_never_one_byte_apart b' pos m). Qed.
