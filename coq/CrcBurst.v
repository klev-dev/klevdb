(* C14: CRC-32C, as computed by Codec.crc32c, tells apart any two byte strings of the same length that differ only inside
   a window of at most four consecutive bytes (a burst of up to 32 bits): the register update is linear over GF(2)
   (crc_step_lxor), feeding k <= 4 bytes from a register c is 8k register steps from c xor (the bytes packed
   little-endian) (fold_pack), and the step is injective on 32-bit values (CrcProofs).  For V2 records the window must not
   straddle the end of the checksum field (bytes 0..3): the checksum is stored in front of the data, not behind it. *)
From KV Require Import Base Model ListAux Codec CodecProofs CrcProofs.
From Coq Require Import ZifyBool ZifyNat ZifyN.

Local Open Scope N_scope.

Ltac xor_ring :=
  apply N.bits_inj; intro; rewrite ?N.lxor_spec;
  repeat match goal with |- context [N.testbit ?x ?n] => destruct (N.testbit x n) end; reflexivity.

Lemma odd_lxor a b : N.odd (N.lxor a b) = xorb (N.odd a) (N.odd b).
Proof. rewrite <- !N.bit0_odd. apply N.lxor_spec. Qed.

Lemma crc_step_lxor a b : crc_step (N.lxor a b) = N.lxor (crc_step a) (crc_step b).
Proof.
  unfold crc_step. rewrite odd_lxor, N.shiftr_lxor.
  destruct (N.odd a), (N.odd b); cbn [xorb]; xor_ring.
Qed.

Lemma step8_lxor a b : step8 (N.lxor a b) = N.lxor (step8 a) (step8 b).
Proof. unfold step8. now rewrite !crc_step_lxor. Qed.

Lemma crc_step_shl x k : crc_step (N.shiftl x (N.succ k)) = N.shiftl x k.
Proof.
  unfold crc_step. rewrite <- N.bit0_odd, N.shiftl_spec_low by lia.
  rewrite N.shiftr_shiftl_l by lia. f_equal. lia.
Qed.

Lemma iter_succ_r {A} (f : A -> A) : forall n x, Nat.iter (S n) f x = Nat.iter n f (f x).
Proof. induction n as [|n IH]; intros x; [reflexivity|]. change (Nat.iter (S (S n)) f x) with (f (Nat.iter (S n) f x)). rewrite IH. reflexivity. Qed.

Lemma step8_shl8 x : step8 (N.shiftl x 8) = x.
Proof.
  enough (Hn : forall n, Nat.iter n crc_step (N.shiftl x (N.of_nat n)) = x) by (rewrite step8_iter; exact (Hn 8%nat)).
  induction n as [|n IH]; [apply N.shiftl_0_r|]. now rewrite iter_succ_r, Nat2N.inj_succ, crc_step_shl.
Qed.

Fixpoint pack (w : list N) : N :=
  match w with
  | [] => 0
  | a :: w' => N.lxor a (N.shiftl (pack w') 8)
  end.

Lemma fold_pack : forall w c, fold_left crc_byte w c = Nat.iter (length w) step8 (N.lxor c (pack w)).
Proof.
  induction w as [|a w IH]; intros c.
  - cbn [fold_left length Nat.iter pack]. now rewrite N.lxor_0_r.
  - cbn [length pack]. rewrite fold_left_cons, IH, iter_succ_r. f_equal.
    rewrite crc_byte_step8. rewrite <- (step8_shl8 (pack w)) at 1. rewrite <- step8_lxor. f_equal.
    now rewrite N.lxor_assoc.
Qed.

Lemma pack_lt : forall w, small w -> pack w < 2 ^ (8 * N.of_nat (length w)).
Proof.
  induction w as [|a w IH]; intros Hw; [cbn; lia|].
  inversion Hw as [|? ? Ha Hw']; subst. specialize (IH Hw'). cbn [pack length].
  replace (8 * N.of_nat (S (length w))) with (8 * N.of_nat (length w) + 8) by lia.
  apply lxor_lt.
  - apply N.lt_le_trans with (2 ^ 8); [exact Ha|]. apply N.pow_le_mono_r; lia.
  - rewrite N.shiftl_mul_pow2, N.pow_add_r. apply N.mul_lt_mono_pos_r; [reflexivity|exact IH].
Qed.

Lemma pack_w32 w : small w -> (length w <= 4)%nat -> w32 (pack w).
Proof.
  intros Hw Hl. unfold w32. apply N.lt_le_trans with (2 ^ (8 * N.of_nat (length w))); [now apply pack_lt|].
  apply N.pow_le_mono_r; lia.
Qed.

Lemma pack_inj : forall w w', small w -> small w' -> length w = length w' -> pack w = pack w' -> w = w'.
Proof.
  induction w as [|a w IH]; intros [|a' w'] Hw Hw' Hl E; try discriminate; [reflexivity|].
  inversion Hw as [|? ? Ha Hws]; subst. inversion Hw' as [|? ? Ha' Hws']; subst.
  cbn [pack] in E.
  assert (Ep : pack w = pack w').
  { assert (E2 : N.shiftr (N.lxor a (N.shiftl (pack w) 8)) 8 = N.shiftr (N.lxor a' (N.shiftl (pack w') 8)) 8) by now rewrite E.
    rewrite !N.shiftr_lxor, (proj1 (lt_pow2_shiftr a 8) Ha), (proj1 (lt_pow2_shiftr a' 8) Ha'), !N.lxor_0_l in E2.
    rewrite !N.shiftr_shiftl_l, !N.sub_diag, !N.shiftl_0_r in E2 by lia. exact E2. }
  rewrite Ep in E. apply lxor_cancel_r in E. subst a'. f_equal. apply IH; auto.
Qed.

Theorem crc32c_burst pre w w' post :
  small pre -> small post -> small w -> small w' -> length w = length w' -> (length w <= 4)%nat ->
  crc32c (pre ++ w ++ post) = crc32c (pre ++ w' ++ post) -> w = w'.
Proof.
  intros Hpre Hpost Hw Hw' Hl H4 E. unfold crc32c in E. apply N2Z.inj, lxor_cancel_r in E.
  rewrite !fold_left_app, (fold_pack w), (fold_pack w'), <- Hl in E. pose proof (fold_w32 pre Hpre) as Hs.
  apply (proj2 (inj32_comp _ _ (inj32_fold post Hpost) (inj32_iter step8 (length w) inj32_step8))) in E;
    [|apply lxor_w32; [exact Hs|apply pack_w32; [assumption|lia]]..].
  rewrite !(N.lxor_comm (fold_left crc_byte pre crc_mask)) in E. apply lxor_cancel_r in E. now apply pack_inj.
Qed.

Local Close Scope N_scope.

(* x and y are equal outside a window of at most four bytes that lies entirely in the first four bytes (the checksum
   field of a V2 record) or entirely behind them *)
Definition differ_in_window (x y : bytes) : Prop :=
  exists pre w w' post, x = pre ++ w ++ post /\ y = pre ++ w' ++ post /\ length w = length w' /\
    (length w <= 4)%nat /\ w <> w' /\ ((length pre + length w <= 4)%nat \/ (4 <= length pre)%nat).

Theorem v2_records_never_a_burst_apart m m' :
  bytes_ok (enc_rec crc32c V2 m) -> bytes_ok (enc_rec crc32c V2 m') ->
  differ_in_window (enc_rec crc32c V2 m) (enc_rec crc32c V2 m') -> False.
Proof.
  intros Hok Hok' (pre & w & w' & post & E & E' & Hl & H4 & Hne & Hwhere).
  apply Hne, (v2_records_window m m' pre w w' post Hok Hok' E E' Hl Hwhere).
  intros p Hp Hw Hw' Hpost. now apply crc32c_burst.
Qed.

(* a record damaged only inside such a window is never read back with its size unchanged - neither as the original
   message nor as any other *)
Theorem burst_damage_detected b' pos m :
  bytes_ok b' -> 0 <= pos -> bytes_ok (enc_rec crc32c V2 m) ->
  differ_in_window (enc_rec crc32c V2 m) (sub b' pos (rec_size V2 m)) ->
  forall m' nxt, read_rec crc32c V2 b' pos = Ok (m', nxt) -> rec_size V2 m' <> rec_size V2 m.
Proof. exact (damage_detected differ_in_window v2_records_never_a_burst_apart b' pos m). Qed.
