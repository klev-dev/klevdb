(* C05: Recover, and Segment.Migrate of a clean segment, can be interrupted anywhere and simply run again: whatever a
   crash leaves after k steps and j bytes of an append in flight, recovering it gives the log file of the uninterrupted
   run and an index file that is the same or absent (then rebuilt on open), and the segment passes Check.  Both programs
   are a copy of the log into a temporary file, a swap, and steps on the index files (Section Prefixes).
   C06: after every step of either program the segment's log and index files are entirely on stable storage. *)
From KV Require Import Base Hash Model Codec ListAux SpecFacts CodecProofs RecoverProofs RecoverCrash.
From Coq Require Import Lia.

Definition only_on (F : rfile -> bool) (s : rstep) : bool :=
  match s with
  | RRemove f | RCreate f _ | RWrite f _ => F f
  | RFsync _ => true
  | RRename a b => F a && F b
  end.

Lemma rexec_keeps F s st g : only_on F s = true -> F g = false -> rget (rexec st s) g = rget st g.
Proof.
  intros Ho Hg. destruct s as [f|f hdr|f bs|f|a b]; cbn [only_on] in Ho.
  - destruct f, g; cbn in *; try reflexivity; congruence.
  - destruct f, g; cbn in *; try reflexivity; congruence.
  - cbn [rexec]. destruct (rget st f) as [c|] eqn:Ec; [|reflexivity]. destruct f, g; cbn in *; try reflexivity; congruence.
  - reflexivity.
  - apply andb_prop in Ho. destruct Ho as [Ha Hb]. cbn [rexec]. destruct (rget st a) as [c|] eqn:Ec; [|reflexivity].
    destruct a, b, g; cbn in *; try reflexivity; congruence.
Qed.

Lemma rrun_keeps F l : forall st g, forallb (only_on F) l = true -> F g = false -> rget (rrun st l) g = rget st g.
Proof.
  induction l as [|s l IH]; intros st g Hl Hg; [reflexivity|]. cbn [forallb] in Hl. apply andb_prop in Hl. destruct Hl as [Hs Hl].
  unfold rrun. cbn [fold_left]. fold (rrun (rexec st s) l). rewrite (IH _ _ Hl Hg). now apply (rexec_keeps F).
Qed.

Lemma rrun_app st a b : rrun st (a ++ b) = rrun (rrun st a) b.
Proof. unfold rrun. apply fold_left_app. Qed.

Lemma rrun_cons st s l : rrun st (s :: l) = rrun (rexec st s) l.
Proof. reflexivity. Qed.

Definition is_rtmp (f : rfile) : bool := match f with RfRtmp => true | _ => false end.
Definition is_itmp (f : rfile) : bool := match f with RfItmp => true | _ => false end.
Definition is_index (f : rfile) : bool := match f with RfIdx | RfItmp => true | _ => false end.

Definition writes_tmp_only (s : rstep) : bool :=
  match s with RWrite f _ => is_rtmp f || is_itmp f | _ => true end.

Lemma rlog_of_rget a b : rget a RfLog = rget b RfLog -> rlog a = rlog b.
Proof. cbn. congruence. Qed.

Lemma appends {A} (enc : A -> bytes) f : forall (xs : list A) st c,
  rget st f = Some c -> rget (rrun st (map (fun x => RWrite f (enc x)) xs)) f = Some (c ++ concat (map enc xs)).
Proof.
  induction xs as [|x xs IH]; intros st c Hc; cbn [map concat]; [now rewrite app_nil_r|].
  rewrite rrun_cons, (IH _ (c ++ enc x)); [now rewrite app_assoc|]. cbn [rexec]. rewrite Hc. destruct f; reflexivity.
Qed.

Lemma copy_only crc v ms : forallb (only_on is_rtmp) (copy_part crc v ms) = true.
Proof. apply forallb_around; reflexivity. Qed.

Lemma copy_writes crc v ms : forallb writes_tmp_only (copy_part crc v ms) = true.
Proof. apply forallb_around; reflexivity. Qed.

Lemma rtmp_only_vis l st : forallb (only_on is_rtmp) l = true -> rlog (rrun st l) = rlog st /\ ridx (rrun st l) = ridx st.
Proof.
  intros Ho. pose proof (rrun_keeps is_rtmp l st RfLog Ho eq_refl) as HL. pose proof (rrun_keeps is_rtmp l st RfIdx Ho eq_refl) as HI.
  cbn [rget] in *. split; congruence.
Qed.

Lemma copy_result crc v ms st : rrtmp (rrun st (copy_part crc v ms)) = Some (enc_log crc v ms).
Proof.
  unfold copy_part. rewrite !rrun_app.
  set (st1 := rrun st [RRemove RfRtmp; RCreate RfRtmp (enc_log_header v)]).
  assert (H1 : rrtmp st1 = Some (enc_log_header v)) by reflexivity.
  pose proof (appends (enc_rec crc v) RfRtmp ms st1 _ H1) as H2.
  unfold rrun at 1. cbn [fold_left rexec]. exact H2.
Qed.

Lemma index_write_only p iv items : forallb (only_on is_itmp) (removelast (index_write_prog p iv items)) = true.
Proof.
  unfold index_write_prog. rewrite app_assoc, removelast_app by discriminate. rewrite <- app_assoc.
  apply forallb_around; reflexivity.
Qed.

Lemma index_write_all_index p iv items : forallb (only_on is_index) (index_write_prog p iv items) = true.
Proof. apply forallb_around; reflexivity. Qed.

Lemma index_write_writes p iv items : forallb writes_tmp_only (index_write_prog p iv items) = true.
Proof. apply forallb_around; reflexivity. Qed.

Lemma index_write_result p iv items st :
  ridx (rrun st (index_write_prog p iv items)) = Some (enc_index iv p items) /\
  ritmp (rrun st (index_write_prog p iv items)) = None.
Proof.
  unfold index_write_prog. rewrite !rrun_app.
  set (st1 := rrun st [RRemove RfItmp; RCreate RfItmp (enc_idx_header iv p)]).
  assert (H1 : ritmp st1 = Some (enc_idx_header iv p)) by reflexivity.
  pose proof (appends (enc_item p) RfItmp items st1 _ H1) as H2. cbn [rget] in H2.
  set (st2 := rrun st1 _) in *. unfold rrun. cbn [fold_left rexec rget]. rewrite H2. cbn. split; reflexivity.
Qed.

(* index.Write touches the index file only in its last step, the rename *)
Lemma index_write_prefix p iv items st k :
  ridx (rrun st (firstn k (index_write_prog p iv items))) = ridx st \/
  ridx (rrun st (firstn k (index_write_prog p iv items))) = Some (enc_index iv p items).
Proof.
  destruct (Nat.lt_ge_cases k (length (index_write_prog p iv items))) as [Hlt|Hge].
  - left. rewrite <- (firstn_removelast _ Hlt).
    exact (rrun_keeps is_itmp _ st RfIdx (forallb_firstn _ _ k (index_write_only p iv items)) eq_refl).
  - right. rewrite firstn_all2 by exact Hge. apply index_write_result.
Qed.

(* Recover's steps on the index file: none (no index file, or the right one), removal (unreadable), or removal and
   index.Write (readable but different) *)
Lemma index_part_cases p base idx items :
  (index_part p base idx items = [] /\ idx_after p base idx items = idx) \/
  (index_part p base idx items = [RRemove RfIdx] /\ idx_after p base idx items = None) \/
  (exists iv, index_part p base idx items = RRemove RfIdx :: index_write_prog p iv items /\
              idx_after p base idx items = Some (enc_index iv p items)).
Proof.
  unfold index_part, idx_after. destruct idx as [ib|]; [|now left].
  destruct (index_read p base ib) as [[iv have]|]; [|now right; left].
  destruct (list_eqb item_eqb have items); [now left|]. right; right. now exists iv.
Qed.

Lemma index_part_all_index p base idx items : forallb (only_on is_index) (index_part p base idx items) = true.
Proof.
  destruct (index_part_cases p base idx items) as [[-> _]|[[-> _]|(iv & -> & _)]]; [reflexivity..|].
  exact (index_write_all_index p iv items).
Qed.

Lemma index_part_writes p base idx items : forallb writes_tmp_only (index_part p base idx items) = true.
Proof.
  destruct (index_part_cases p base idx items) as [[-> _]|[[-> _]|(iv & -> & _)]]; [reflexivity..|].
  exact (index_write_writes p iv items).
Qed.

Lemma index_part_prefix p base idx items st k :
  ridx st = idx ->
  ridx (rrun st (firstn k (index_part p base idx items))) = idx \/
  ridx (rrun st (firstn k (index_part p base idx items))) = None \/
  ridx (rrun st (firstn k (index_part p base idx items))) = idx_after p base idx items.
Proof.
  intros Hi. destruct (index_part_cases p base idx items) as [[-> _]|[[-> _]|(iv & -> & ->)]].
  - left. now destruct k.
  - destruct k as [|[|k]]; [left; exact Hi|right; left; reflexivity..].
  - destruct k as [|k]; [left; exact Hi|]. cbn [firstn]. rewrite rrun_cons. right.
    destruct (index_write_prefix p iv items (rexec st (RRemove RfIdx)) k) as [-> | ->]; [left|right]; reflexivity.
Qed.

Lemma index_part_result p base idx items st :
  ridx st = idx -> ridx (rrun st (index_part p base idx items)) = idx_after p base idx items.
Proof.
  intros Hi. destruct (index_part_cases p base idx items) as [[-> ->]|[[-> ->]|(iv & -> & ->)]]; [exact Hi|reflexivity|].
  rewrite rrun_cons. apply index_write_result.
Qed.

Lemma rimage_vis st prog k j :
  forallb writes_tmp_only prog = true ->
  rlog (rimage st prog k j) = rlog (rrun st (firstn k prog)) /\ ridx (rimage st prog k j) = ridx (rrun st (firstn k prog)).
Proof.
  intros Hw. unfold rimage. destruct (nth_error prog k) as [s|] eqn:En; [|split; reflexivity].
  destruct s as [f|f hdr|f bs|f|a b]; try (split; reflexivity).
  assert (Hs : writes_tmp_only (RWrite f bs) = true).
  { rewrite forallb_forall in Hw. apply Hw. eapply nth_error_In; eassumption. }
  set (s0 := rrun st (firstn k prog)).
  pose proof (rexec_keeps (fun g => is_rtmp g || is_itmp g) (RWrite f (firstn j bs)) s0 RfLog Hs eq_refl) as HL.
  pose proof (rexec_keeps (fun g => is_rtmp g || is_itmp g) (RWrite f (firstn j bs)) s0 RfIdx Hs eq_refl) as HI.
  cbn [rget] in *. split; congruence.
Qed.

Lemma rimage_cons st s l k j : rimage st (s :: l) (S k) j = rimage (rexec st s) l k j.
Proof. reflexivity. Qed.

(* a program [copy_part crc v ms ++ [swap] ++ ip] run on log b and index idx, ip leading from idx to inew *)
Section Prefixes.
Variables (crc : bytes -> Z) (v : ver) (ms : list msg) (b newlog : bytes) (idx inew : option bytes) (swap : rstep) (ip : list rstep).
(* the swap installs the copy (when the scan met a corrupt tail) or drops it (then the log is already what it should be) *)
Hypothesis Hswap : (swap = RRename RfRtmp RfLog /\ newlog = enc_log crc v ms) \/ (swap = RRemove RfRtmp /\ newlog = b).
Hypothesis Hip_index : forallb (only_on is_index) ip = true.
(* an append of ip that a crash cuts short shows neither in the log nor in the index file (rimage_vis) *)
Hypothesis Hip_writes : forallb writes_tmp_only ip = true.
Hypothesis Hip_prefix : forall st k, ridx st = idx ->
  ridx (rrun st (firstn k ip)) = idx \/ ridx (rrun st (firstn k ip)) = None \/ ridx (rrun st (firstn k ip)) = inew.
Hypothesis Hip_result : forall st, ridx st = idx -> ridx (rrun st ip) = inew.

Lemma after_swap st : rlog st = b -> ridx st = idx ->
  let st2 := rexec (rrun st (copy_part crc v ms)) swap in rlog st2 = newlog /\ ridx st2 = idx /\ rrtmp st2 = None.
Proof.
  intros HL HI. pose proof (copy_result crc v ms st) as Ht. destruct (rtmp_only_vis _ st (copy_only crc v ms)) as [Hl Hi]. cbv zeta.
  destruct Hswap as [[-> ->]|[-> ->]]; cbn [rexec rget].
  - rewrite Ht. cbn [rset rlog ridx rrtmp ritmp]. split; [reflexivity|]. split; [congruence|reflexivity].
  - cbn [rset rlog ridx rrtmp ritmp]. split; [congruence|]. split; [congruence|reflexivity].
Qed.

Let prog := copy_part crc v ms ++ [swap] ++ ip.

(* an old log goes with the old index only *)
Lemma prefix_vis st k : rlog st = b -> ridx st = idx ->
  (rlog (rrun st (firstn k prog)) = b /\ ridx (rrun st (firstn k prog)) = idx) \/
  (rlog (rrun st (firstn k prog)) = newlog /\
   (ridx (rrun st (firstn k prog)) = idx \/ ridx (rrun st (firstn k prog)) = None \/ ridx (rrun st (firstn k prog)) = inew)).
Proof.
  intros HL HI. unfold prog. cbn [app].
  destruct (firstn_app_cons (copy_part crc v ms) swap ip k) as [->|(k1 & ->)].
  - left. destruct (rtmp_only_vis _ st (forallb_firstn _ _ k (copy_only crc v ms))) as [Hl Hi]. split; congruence.
  - right. rewrite rrun_app, rrun_cons. destruct (after_swap st HL HI) as (Hl2 & Hi2 & _). cbv zeta in *.
    split; [|now apply Hip_prefix].
    rewrite <- Hl2. apply rlog_of_rget, (rrun_keeps is_index); [apply forallb_firstn, Hip_index|reflexivity].
Qed.

Lemma image_cases st k j : rlog st = b -> ridx st = idx ->
  let img := rimage st prog k j in
  (rlog img = b /\ ridx img = idx) \/ (rlog img = newlog /\ (ridx img = idx \/ ridx img = None \/ ridx img = inew)).
Proof.
  intros HL HI.
  assert (Hw : forallb writes_tmp_only prog = true).
  { unfold prog. rewrite !forallb_app, copy_writes, Hip_writes. cbn [forallb]. destruct Hswap as [[-> _]|[-> _]]; reflexivity. }
  cbv zeta. destruct (rimage_vis st prog k j Hw) as [-> ->]. now apply prefix_vis.
Qed.

Lemma full_run st : rlog st = b -> ridx st = idx ->
  rlog (rrun st prog) = newlog /\ ridx (rrun st prog) = inew /\ rrtmp (rrun st prog) = None.
Proof.
  intros HL HI. unfold prog. rewrite rrun_app. cbn [app]. rewrite rrun_cons.
  destruct (after_swap st HL HI) as (Hl2 & Hi2 & Ht2). cbv zeta in *. set (st2 := rexec _ swap) in *.
  split; [rewrite <- Hl2; apply rlog_of_rget, (rrun_keeps is_index); [exact Hip_index|reflexivity]|].
  split; [now apply Hip_result|]. rewrite <- Ht2. exact (rrun_keeps is_index ip st2 RfRtmp Hip_index eq_refl).
Qed.

End Prefixes.

Lemma image_vis crc p base v ms items b newlog idx swap :
  (swap = RRename RfRtmp RfLog /\ newlog = enc_log crc v ms) \/ (swap = RRemove RfRtmp /\ newlog = b) ->
  forall rt it k j,
  let img := rimage (mkRf b rt idx it) (copy_part crc v ms ++ [swap] ++ index_part p base idx items) k j in
  (rlog img = b \/ rlog img = newlog) /\
  (ridx img = idx \/ ridx img = None \/ ridx img = idx_after p base idx items).
Proof.
  intros Hswap rt it k j.
  destruct (image_cases crc v ms b newlog idx (idx_after p base idx items) swap (index_part p base idx items) Hswap
              (index_part_all_index p base idx items) (index_part_writes p base idx items)
              (index_part_prefix p base idx items) (mkRf b rt idx it) k j eq_refl eq_refl) as [[HL HI]|[HL HI]].
  - split; left; assumption.
  - split; [right|]; assumption.
Qed.

Section Restart.
Variables crc H : bytes -> Z.
Hypothesis Hcrc : crc_range crc.
Hypothesis Hhash : forall k, 0 <= H k < two64z.

(* [injection] on an equation between two programs unfolds copy_part and computes the appends *)
Lemma Ok_inj {A} (a b : A) : @Ok A a = Ok b -> a = b.
Proof. intros E. now injection E. Qed.

Definition swap_of (fin : scan_end) : rstep := match fin with ScanCorrupt => RRename RfRtmp RfLog | _ => RRemove RfRtmp end.

Lemma recover_prog_of_scan p base b v recs e fin i :
  log_version b base = Ok v -> scan_log crc (scan_fuel_of b) v b (hdr_size v) = (recs, e, fin) -> fin <> ScanFuel ->
  recover_prog crc H p base b i =
    Ok (copy_part crc v (map snd recs) ++ [swap_of fin] ++ index_part p base i (scan_items H p recs)).
Proof. intros Ev Es Hnf. unfold recover_prog. rewrite Ev. cbn [bind]. rewrite Es. destruct fin; [reflexivity..|congruence]. Qed.

Section OneSegment.
Variables (p : params) (base : Z) (b : bytes) (idx : option bytes) (newlog : bytes) (idx' : option bytes).
Hypothesis Hok : bytes_ok b.
Hypothesis Hlen : zlen b < two63.
Hypothesis Hbase : 0 <= base < two63.
(* the segment file is named after its first record *)
Hypothesis Hnamed : forall v m nxt, log_version b base = Ok v -> read_rec crc v b (hdr_size v) = Ok (m, nxt) -> moff m = base.
Hypothesis Hrec : recover_bytes crc H p base b idx = Ok (newlog, idx').

Lemma restart_facts :
  exists v ms items swap,
    recover_prog crc H p base b idx = Ok (copy_part crc v ms ++ [swap] ++ index_part p base idx items) /\
    ((swap = RRename RfRtmp RfLog /\ newlog = enc_log crc v ms) \/ (swap = RRemove RfRtmp /\ newlog = b)) /\
    idx' = idx_after p base idx items /\
    (forall i, recover_bytes crc H p base b i = Ok (newlog, idx_after p base i items)) /\
    (forall i, recover_bytes crc H p base newlog i = Ok (newlog, idx_after p base i items)).
Proof using Hcrc Hok Hbase Hnamed Hrec.
  destruct (recover_scan crc H p base b idx newlog idx' Hok Hrec)
    as (v & ms & e & fin & rest & Ev & Es & Hall & Hnl & Hb & Hi' & Hfin).
  assert (Hnf : fin <> ScanFuel) by (intros ->; exact Hfin).
  assert (Hsw : (fin = ScanCorrupt /\ newlog = enc_log crc v ms) \/ (fin = ScanEOF /\ newlog = b)).
  { destruct fin; [right|left|contradiction]; (split; [reflexivity|]); [|exact Hnl]. now rewrite Hb, Hfin, app_nil_r. }
  exists v, ms, (scan_items H p (placed v (hdr_size v) ms)), (swap_of fin).
  split; [rewrite (recover_prog_of_scan p base b v _ e fin idx Ev Es Hnf), map_snd_placed; reflexivity|].
  split; [destruct Hsw as [[-> Hn]|[-> Hn]]; [left|right]; (split; [reflexivity|exact Hn])|].
  split; [exact Hi'|]. split; intros i.
  - rewrite (recover_of_scan crc H p base b v _ e fin i Ev Es Hnf), map_snd_placed.
    destruct Hsw as [[-> Hn]|[-> Hn]]; now rewrite Hn.
  - rewrite Hnl in Hb |- *. apply (recover_clean crc H Hcrc p base v ms i Hall).
    apply (prefix_version crc Hcrc base b v ms rest Hbase (fun m nxt => Hnamed v m nxt Ev) Hall Hb).
Qed.

(* k whole steps of Recover, j bytes of an append in flight, rt and it the stale temporary files of earlier attempts *)
Theorem recover_restartable prog rt it k j :
  recover_prog crc H p base b idx = Ok prog ->
  let img := rimage (mkRf b rt idx it) prog k j in
  exists i'',
    recover_bytes crc H p base (rlog img) (ridx img) = Ok (newlog, i'') /\ (i'' = idx' \/ i'' = None) /\
    check_bytes crc H p base newlog i'' = Ok tt.
Proof.
  intros Hp. destruct restart_facts as (v & ms & items & swap & Hprog & Hswap & Hi' & Hb & Hn).
  rewrite Hprog in Hp. apply Ok_inj in Hp. subst prog. cbv zeta.
  destruct (image_vis crc p base v ms items b newlog idx swap Hswap rt it k j) as [HL HI]. cbv zeta in HL, HI.
  set (img := rimage (mkRf b rt idx it) _ k j) in *.
  (* the uninterrupted Recover and a Recover without index file both end in a segment that passes Check and on which
     recovering again changes nothing *)
  destruct (recover_then_check crc H Hcrc Hhash p base b idx newlog idx' Hok Hlen Hbase Hnamed Hrec) as [Hchk Hidem].
  pose proof (Hb None) as HbN. cbn [idx_after] in HbN.
  destruct (recover_then_check crc H Hcrc Hhash p base b None newlog None Hok Hlen Hbase Hnamed HbN) as [HchkN _].
  assert (Hfix : idx_after p base idx' items = idx').
  { pose proof (Hn idx') as E. rewrite Hidem in E. now injection E. }
  assert (Hres : recover_bytes crc H p base (rlog img) (ridx img) = Ok (newlog, idx_after p base (ridx img) items)).
  { destruct HL as [-> | ->]; [apply Hb|apply Hn]. }
  rewrite Hres. destruct HI as [-> | [-> | ->]].
  - exists idx'. split; [now rewrite <- Hi'|]. split; [now left|exact Hchk].
  - exists None. split; [reflexivity|]. split; [now right|exact HchkN].
  - rewrite <- Hi'. exists idx'. split; [now rewrite Hfix|]. split; [now left|exact Hchk].
Qed.

(* the program computes recover_bytes, the function the C07 theorems are about *)
Theorem recover_prog_computes prog rt it :
  recover_prog crc H p base b idx = Ok prog ->
  rlog (rrun (mkRf b rt idx it) prog) = newlog /\ ridx (rrun (mkRf b rt idx it) prog) = idx' /\
  rrtmp (rrun (mkRf b rt idx it) prog) = None.
Proof using Hcrc Hhash Hok Hbase Hnamed Hrec.
  intros Hp. destruct restart_facts as (v & ms & items & swap & Hprog & Hswap & Hi' & _ & _).
  rewrite Hprog in Hp. apply Ok_inj in Hp. subst prog. rewrite Hi'.
  exact (full_run crc v ms b newlog idx _ swap _ Hswap (index_part_all_index p base idx items) (index_part_result p base idx items)
           (mkRf b rt idx it) eq_refl eq_refl).
Qed.

End OneSegment.
End Restart.

(* a concrete head with a torn tail (two records, then three bytes of a third) and an index that lags one item
   behind: Recover renames the copy over the log and rewrites the index (13 steps).  The check over all k and j goes
   by image_vis and recover_of_scan; only the scans and index comparisons of ex_facts are evaluated. *)
Definition ex_p : params := mkParams true true.
Definition ex_m0 : msg := mkMsg 0 5 [97%N] [98%N; 98%N].
Definition ex_m1 : msg := mkMsg 1 6 [98%N] [99%N].
Definition ex_log : bytes := enc_log crc32c V2 [ex_m0; ex_m1] ++ [1%N; 2%N; 3%N].
Definition ex_idx : option bytes := Some (enc_index V2 ex_p (scan_items fnv64a ex_p [(8, ex_m0)])).

Definition opt_bytes_eqb (a b : option bytes) : bool :=
  match a, b with Some x, Some y => bytes_eqb x y | None, None => true | _, _ => false end.

Definition ex_ok : bool :=
  match recover_bytes crc32c fnv64a ex_p 0 ex_log ex_idx, recover_prog crc32c fnv64a ex_p 0 ex_log ex_idx with
  | Ok (newlog, idx'), Ok prog =>
    (13 =? Z.of_nat (length prog)) && bytes_eqb newlog (enc_log crc32c V2 [ex_m0; ex_m1]) &&
    negb (opt_bytes_eqb idx' ex_idx) && negb (opt_bytes_eqb idx' None) &&
    forallb (fun k => forallb (fun j =>
        let img := rimage (mkRf ex_log (Some [7%N]) ex_idx None) prog k j in
        match recover_bytes crc32c fnv64a ex_p 0 (rlog img) (ridx img) with
        | Ok (l2, i2) => bytes_eqb l2 newlog && (opt_bytes_eqb i2 idx' || opt_bytes_eqb i2 None)
        | Err _ => false
        end) (seq 0 41)) (seq 0 15)
  | _, _ => false
  end.

Definition ex_items : list item := scan_items fnv64a ex_p (placed V2 (hdr_size V2) [ex_m0; ex_m1]).

Lemma ex_facts :
  scan_log crc32c (scan_fuel_of ex_log) V2 ex_log (hdr_size V2) =
    (placed V2 (hdr_size V2) [ex_m0; ex_m1], log_size V2 [ex_m0; ex_m1], ScanCorrupt) /\
  scan_log crc32c (scan_fuel_of (enc_log crc32c V2 [ex_m0; ex_m1])) V2 (enc_log crc32c V2 [ex_m0; ex_m1]) (hdr_size V2) =
    (placed V2 (hdr_size V2) [ex_m0; ex_m1], log_size V2 [ex_m0; ex_m1], ScanEOF) /\
  idx_after ex_p 0 ex_idx ex_items = Some (enc_index V2 ex_p ex_items) /\
  idx_after ex_p 0 (Some (enc_index V2 ex_p ex_items)) ex_items = Some (enc_index V2 ex_p ex_items) /\
  opt_bytes_eqb (Some (enc_index V2 ex_p ex_items)) ex_idx = false /\
  length (copy_part crc32c V2 [ex_m0; ex_m1] ++ [RRename RfRtmp RfLog] ++ index_part ex_p 0 ex_idx ex_items) = 13%nat.
Proof. split; [|split; [|split; [|split; [|split]]]]; vm_compute; reflexivity. Qed.

Example recover_restartable_example : ex_ok = true.
Proof.
  destruct ex_facts as (Sold & Snew & Iold & Inew & Idiff & Hlen).
  assert (Hb : forall i,
    recover_bytes crc32c fnv64a ex_p 0 ex_log i = Ok (enc_log crc32c V2 [ex_m0; ex_m1], idx_after ex_p 0 i ex_items)).
  { intros i. apply (recover_of_scan crc32c fnv64a ex_p 0 ex_log V2 _ _ ScanCorrupt i eq_refl Sold). discriminate. }
  assert (Hp : recover_prog crc32c fnv64a ex_p 0 ex_log ex_idx =
      Ok (copy_part crc32c V2 [ex_m0; ex_m1] ++ [RRename RfRtmp RfLog] ++ index_part ex_p 0 ex_idx ex_items)).
  { apply (recover_prog_of_scan crc32c fnv64a ex_p 0 ex_log V2 _ _ ScanCorrupt ex_idx eq_refl Sold). discriminate. }
  assert (Hn : forall i, recover_bytes crc32c fnv64a ex_p 0 (enc_log crc32c V2 [ex_m0; ex_m1]) i =
                         Ok (enc_log crc32c V2 [ex_m0; ex_m1], idx_after ex_p 0 i ex_items)).
  { intros i. apply (recover_of_scan crc32c fnv64a ex_p 0 (enc_log crc32c V2 [ex_m0; ex_m1]) V2 _ _ ScanEOF i eq_refl Snew). discriminate. }
  unfold ex_ok. rewrite (Hb ex_idx), Hp. cbv beta iota.
  rewrite Iold, Idiff, Hlen, bytes_eqb_refl. apply andb_true_intro. split; [reflexivity|].
  apply forallb_forall. intros k _. apply forallb_forall. intros j _.
  destruct (image_vis crc32c ex_p 0 V2 [ex_m0; ex_m1] ex_items ex_log (enc_log crc32c V2 [ex_m0; ex_m1]) ex_idx
              (RRename RfRtmp RfLog) (or_introl (conj eq_refl eq_refl)) (Some [7%N]) None k j) as [HL HI].
  cbv zeta in *. set (img := rimage _ _ k j) in *.
  replace (recover_bytes crc32c fnv64a ex_p 0 (rlog img) (ridx img))
    with (Ok (enc_log crc32c V2 [ex_m0; ex_m1], idx_after ex_p 0 (ridx img) ex_items))
    by (destruct HL as [-> | ->]; symmetry; [apply Hb|apply Hn]).
  cbv beta iota. rewrite bytes_eqb_refl. rewrite Iold in HI.
  destruct HI as [-> | [-> | ->]]; [rewrite Iold|apply orb_true_r|rewrite Inew]; cbn [opt_bytes_eqb]; now rewrite bytes_eqb_refl.
Qed.

Lemma placed_at_placed v : forall ms pos, placed_at v pos ms = placed v pos ms.
Proof. induction ms as [|m r IH]; intros pos; [reflexivity|]. cbn [placed_at placed]. now rewrite IH. Qed.

Section Migrate.
Variables crc H : bytes -> Z.
Hypothesis Hcrc : crc_range crc.
Hypothesis Hhash : forall k, 0 <= H k < two64z.

Variables (p : params) (base : Z) (v mv iv : ver) (ms : list msg) (idx0 : option bytes).
Hypothesis Hall : Forall msg_ok ms.
Hypothesis Hbase : 0 <= base < two63.
Hypothesis Hfirst : match ms with [] => True | m :: _ => moff m = base end.   (* the file is named after its first record *)
Hypothesis Hdiff : ver_eqb v mv = false.
Hypothesis Hsize : hdr_size mv + recs_size mv ms < two63.
(* clean before: the index file is absent or the one derived from the log *)
Hypothesis Hidx0 : index_is p base idx0 (scan_items H p (placed v (hdr_size v) ms)).

Let oldlog := enc_log crc v ms.
Let newlog := enc_log crc mv ms.
Let items' := scan_items H p (placed mv (hdr_size mv) ms).

Lemma version_of_enc w : log_version (enc_log crc w ms) base = Ok w.
Proof. apply log_version_enc. intros _. destruct ms as [|m r]; [exact I|]. split; [exact Hfirst|exact Hbase]. Qed.

Lemma migrate_prog_eq :
  migrate_prog crc H p base mv iv oldlog =
    Ok ([RRemove RfIdx] ++ copy_part crc mv ms ++ [RRename RfRtmp RfLog] ++ index_write_prog p iv items').
Proof.
  unfold migrate_prog, oldlog. rewrite (version_of_enc v). cbn [bind]. rewrite Hdiff.
  rewrite (scan_encoded_log crc v ms Hcrc Hall). rewrite map_snd_placed. unfold items'. now rewrite placed_at_placed.
Qed.

(* the four directories a crash can leave, all clean, all holding ms *)
Definition migrate_good (st : rfiles) : Prop :=
  (rlog st = oldlog /\ (ridx st = idx0 \/ ridx st = None)) \/
  (rlog st = newlog /\ (ridx st = None \/ ridx st = Some (enc_index iv p items'))).

Lemma migrate_good_checks st : migrate_good st ->
  check_bytes crc H p base (rlog st) (ridx st) = Ok tt /\ exists w, (w = v \/ w = mv) /\ rlog st = enc_log crc w ms.
Proof.
  intros [[-> Hi]|[-> Hi]].
  - split; [|exists v; split; [now left|reflexivity]]. apply (check_clean crc H Hcrc); [exact Hall|apply version_of_enc|].
    destruct Hi as [-> | ->]; [exact Hidx0|exact I].
  - split; [|exists mv; split; [now right|reflexivity]]. apply (check_clean crc H Hcrc); [exact Hall|apply version_of_enc|].
    destruct Hi as [-> | ->]; [exact I|]. apply (derived_index_is H Hhash); [exact Hall|exact Hsize|lia|exact Hfirst].
Qed.

(* in the shape of Hip_prefix with idx := None: after its first step Migrate has no index file *)
Lemma index_write_from_none st k : ridx st = None ->
  ridx (rrun st (firstn k (index_write_prog p iv items'))) = None \/
  ridx (rrun st (firstn k (index_write_prog p iv items'))) = None \/
  ridx (rrun st (firstn k (index_write_prog p iv items'))) = Some (enc_index iv p items').
Proof. intros Hi. destruct (index_write_prefix p iv items' st k) as [E|E]; rewrite E; [left; exact Hi|right; right; reflexivity]. Qed.

(* C05 for Migrate: every crash image is clean and holds the same messages, in the old version or the new one *)
Theorem migrate_crash_safe prog rt it k j :
  migrate_prog crc H p base mv iv oldlog = Ok prog ->
  let img := rimage (mkRf oldlog rt idx0 it) prog k j in
  check_bytes crc H p base (rlog img) (ridx img) = Ok tt /\ exists w, (w = v \/ w = mv) /\ rlog img = enc_log crc w ms.
Proof.
  intros Hp. rewrite migrate_prog_eq in Hp. apply Ok_inj in Hp. subst prog. cbv zeta. apply migrate_good_checks.
  destruct k as [|k]; [left; split; [reflexivity|now left]|]. cbn [app]. rewrite rimage_cons.
  destruct (image_cases crc mv ms oldlog newlog None (Some (enc_index iv p items')) (RRename RfRtmp RfLog) (index_write_prog p iv items')
              (or_introl (conj eq_refl eq_refl)) (index_write_all_index p iv items') (index_write_writes p iv items') index_write_from_none
              (rexec (mkRf oldlog rt idx0 it) (RRemove RfIdx)) k j eq_refl eq_refl) as [[HL HI]|[HL HI]].
  - left. split; [exact HL|right; exact HI].
  - right. split; [exact HL|]. destruct HI as [HI|[HI|HI]]; [left|left|right]; exact HI.
Qed.

Theorem migrate_prog_result prog rt it :
  migrate_prog crc H p base mv iv oldlog = Ok prog ->
  rlog (rrun (mkRf oldlog rt idx0 it) prog) = enc_log crc mv ms /\
  ridx (rrun (mkRf oldlog rt idx0 it) prog) = Some (enc_index iv p (scan_items H p (placed mv (hdr_size mv) ms))).
Proof.
  intros Hp. rewrite migrate_prog_eq in Hp. apply Ok_inj in Hp. subst prog. cbn [app]. rewrite rrun_cons.
  destruct (full_run crc mv ms oldlog newlog None (Some (enc_index iv p items')) (RRename RfRtmp RfLog) (index_write_prog p iv items')
              (or_introl (conj eq_refl eq_refl)) (index_write_all_index p iv items') (fun st _ => proj1 (index_write_result p iv items' st))
              (rexec (mkRf oldlog rt idx0 it) (RRemove RfIdx)) eq_refl eq_refl) as (HL & HI & _).
  split; [exact HL|exact HI].
Qed.

End Migrate.

(* C06: during Recover, Migrate and index.Write the segment's log and index files are durable at every step: they only
   ever write to temporary files, fsync them, and rename them into place *)

Lemma ld_app s a : forall b, live_durable s (a ++ b) <-> live_durable s a /\ live_durable (srun s a) b.
Proof.
  revert s. induction a as [|x a IH]; intros s b; cbn [app live_durable srun fold_left]; [tauto|].
  fold (srun (sexec s x) a). rewrite IH. tauto.
Qed.

Lemma srun_app s a b : srun s (a ++ b) = srun (srun s a) b.
Proof. unfold srun. apply fold_left_app. Qed.

Lemma writes_tmp_flags {A} (enc : A -> bytes) f : is_rtmp f || is_itmp f = true -> forall xs s,
  s_log s = true -> s_idx s = true ->
  live_durable s (map (fun x => RWrite f (enc x)) xs) /\
  exists c, srun s (map (fun x => RWrite f (enc x)) xs) = sset s f c.
Proof.
  intros Hf. induction xs as [|x xs IH]; intros s Hl Hi; cbn [map live_durable srun fold_left sexec].
  - split; [exact I|]. exists (sget s f). destruct s, f; reflexivity.
  - assert (Hs : s_log (sset s f false) = true /\ s_idx (sset s f false) = true) by (destruct f; try discriminate; now split).
    destruct (IH (sset s f false) (proj1 Hs) (proj2 Hs)) as [H1 (c & H2)].
    split; [split; [apply Hs|split; [apply Hs|exact H1]]|]. exists c. unfold srun in H2. rewrite H2. destruct f; reflexivity.
Qed.

Lemma copy_part_durable crc v ms r t :
  live_durable (mkS true r true t) (copy_part crc v ms) /\ srun (mkS true r true t) (copy_part crc v ms) = mkS true true true t.
Proof.
  unfold copy_part. rewrite !ld_app, !srun_app. cbn [live_durable srun fold_left sexec sset s_log s_idx s_rtmp s_itmp].
  destruct (writes_tmp_flags (enc_rec crc v) RfRtmp eq_refl ms (mkS true true true t) eq_refl eq_refl) as [H1 (r' & H2)].
  rewrite H2. cbn [live_durable fold_left sexec sset s_log s_idx s_rtmp s_itmp].
  split; [|reflexivity]. split; [repeat split|]. split; [exact H1|]. repeat split.
Qed.

Lemma index_write_durable p iv items r t :
  live_durable (mkS true r true t) (index_write_prog p iv items) /\
  srun (mkS true r true t) (index_write_prog p iv items) = mkS true r true true.
Proof.
  unfold index_write_prog. rewrite !ld_app, !srun_app. cbn [live_durable srun fold_left sexec sset s_log s_idx s_rtmp s_itmp].
  destruct (writes_tmp_flags (enc_item p) RfItmp eq_refl items (mkS true r true true) eq_refl eq_refl) as [H1 (t' & H2)].
  rewrite H2. cbn [live_durable fold_left sexec sset sget s_log s_idx s_rtmp s_itmp].
  split; [|reflexivity]. split; [repeat split|]. split; [exact H1|]. repeat split.
Qed.

Lemma index_part_durable p base idx items t : live_durable (mkS true true true t) (index_part p base idx items).
Proof.
  destruct (index_part_cases p base idx items) as [[-> _]|[[-> _]|(iv & -> & _)]]; [exact I|repeat split|].
  cbn [live_durable sexec sset s_log s_idx s_rtmp s_itmp]. split; [reflexivity|]. split; [reflexivity|]. apply index_write_durable.
Qed.

Lemma copy_swap_durable crc v ms swap ip r t :
  swap = RRename RfRtmp RfLog \/ swap = RRemove RfRtmp -> live_durable (mkS true true true t) ip ->
  live_durable (mkS true r true t) (copy_part crc v ms ++ [swap] ++ ip).
Proof.
  intros Hs Hip. rewrite ld_app. destruct (copy_part_durable crc v ms r t) as [H1 H2]. split; [exact H1|].
  rewrite H2. cbn [app live_durable].
  assert (Hsw : sexec (mkS true true true t) swap = mkS true true true t) by (destruct Hs as [-> | ->]; reflexivity).
  rewrite Hsw. split; [reflexivity|]. split; [reflexivity|exact Hip].
Qed.

Theorem recover_prog_live_files_durable crc H p base b idx prog r t :
  recover_prog crc H p base b idx = Ok prog -> live_durable (mkS true r true t) prog.
Proof.
  unfold recover_prog. destruct (log_version b base) as [v|]; [|discriminate]. cbn [bind].
  destruct (scan_log crc (scan_fuel_of b) v b (hdr_size v)) as [[recs e] fin].
  destruct fin; intros E; try discriminate; apply Ok_inj in E; subst prog;
    (apply copy_swap_durable; [|apply index_part_durable]); [now right|now left].
Qed.

Theorem migrate_prog_live_files_durable crc H p base mv iv b prog r t :
  migrate_prog crc H p base mv iv b = Ok prog -> live_durable (mkS true r true t) prog.
Proof.
  unfold migrate_prog. destruct (log_version b base) as [v|]; [|discriminate]. cbn [bind].
  destruct (ver_eqb v mv); [intros E; apply Ok_inj in E; subst prog; exact I|].
  destruct (scan_log crc (scan_fuel_of b) v b (hdr_size v)) as [[recs e] fin]. destruct fin; try discriminate.
  intros E. apply Ok_inj in E. subst prog. cbn [app live_durable sexec sset s_log s_idx s_rtmp s_itmp].
  split; [reflexivity|]. split; [reflexivity|]. apply copy_swap_durable; [now left|apply index_write_durable].
Qed.
