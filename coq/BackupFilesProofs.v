(* BackupFilesProofs.v — C20, copy mechanics: as long as every file of the target that carries a name of the source is a
   PREFIX of that source file - true of an empty target, of the result of an earlier Backup of a source that has since
   only been appended to, and of whatever a killed Backup leaves - a Backup makes every source file appear in the target
   with exactly the source's content and time, whatever the modification times in the target are; the size-and-mtime
   skip rule never keeps a file that differs.  In particular a Backup that follows a killed Backup finishes the job. *)
From KV Require Import Base ListAux Durable DurableProofs BackupFiles BackupProofs.
From Coq Require Import ZifyBool ZifyNat.

Definition is_prefix (a b : bytes) : Prop := exists t, b = a ++ t.

Lemma prefix_refl a : is_prefix a a.
Proof. exists []. now rewrite app_nil_r. Qed.

Lemma prefix_trans a b c : is_prefix a b -> is_prefix b c -> is_prefix a c.
Proof. intros [t ->] [u ->]. exists (t ++ u). now rewrite app_assoc. Qed.

Lemma prefix_firstn k (a : bytes) : is_prefix (firstn k a) a.
Proof. exists (skipn k a). symmetry. apply firstn_skipn. Qed.

Lemma prefix_same_length a b : is_prefix a b -> length a = length b -> a = b.
Proof. intros [t E]. exact (skip_rule_safe a b t E). Qed.

Definition fcovered (tgt src : bdir) : Prop :=
  forall n s d, blookup src n = Some s -> blookup tgt n = Some d -> is_prefix (bdata d) (bdata s).

Definition appended (src src' : bdir) : Prop :=
  forall n s, blookup src n = Some s -> exists s', blookup src' n = Some s' /\ is_prefix (bdata s) (bdata s').

Lemma blookup_bset_same d n f : blookup (bset d n f) n = Some f.
Proof.
  induction d as [|[m g] r IH]; cbn [bset blookup]; [now rewrite fname_eqb_refl|].
  destruct (fname_eqb m n) eqn:E; cbn [blookup]; rewrite E; [reflexivity|exact IH].
Qed.

Lemma blookup_bset_other d n f m : m <> n -> blookup (bset d n f) m = blookup d m.
Proof.
  intros Hne. induction d as [|[x g] r IH]; cbn [bset blookup].
  - destruct (fname_eqb n m) eqn:E; [apply fname_eqb_eq in E; congruence|reflexivity].
  - destruct (fname_eqb x n) eqn:E; cbn [blookup].
    + apply fname_eqb_eq in E. subst x. destruct (fname_eqb n m) eqn:E2; [apply fname_eqb_eq in E2; congruence|reflexivity].
    + destruct (fname_eqb x m); [reflexivity|exact IH].
Qed.

Lemma blookup_in d n f : blookup d n = Some f -> In n (map fst d).
Proof.
  induction d as [|[m g] r IH]; cbn [blookup]; [discriminate|]. destruct (fname_eqb m n) eqn:E.
  - apply fname_eqb_eq in E. intros _. now left.
  - intros H. right. now apply IH.
Qed.

Lemma blookup_none d n : ~ In n (map fst d) -> blookup d n = None.
Proof. intros Hn. destruct (blookup d n) as [f|] eqn:E; [elim Hn; exact (blookup_in d n f E)|reflexivity]. Qed.

Lemma blookup_app a b n : blookup (a ++ b) n = match blookup a n with Some f => Some f | None => blookup b n end.
Proof. induction a as [|[m g] r IH]; cbn [app blookup]; [reflexivity|]. destruct (fname_eqb m n); [reflexivity|exact IH]. Qed.

Lemma blookup_notin d n : blookup d n = None -> ~ In n (map fst d).
Proof.
  induction d as [|[m g] r IH]; cbn [blookup map fst In]; [tauto|]. destruct (fname_eqb m n) eqn:E; [discriminate|].
  intros Hn [->|Hin]; [rewrite fname_eqb_refl in E; discriminate|now apply IH].
Qed.

Lemma copy_of_prefix s d : is_prefix (bdata d) (bdata s) -> copy_file s (Some d) = s.
Proof.
  intros Hp. unfold copy_file, skip_copy. destruct s as [sd sm], d as [dd dm]. cbn [bdata bmtime] in *.
  destruct ((Z.of_nat (length sd) =? Z.of_nat (length dd)) && (sm =? dm)) eqn:E; [|reflexivity].
  apply andb_prop in E. destruct E as [E1 E2]. f_equal; [|lia]. apply prefix_same_length; [exact Hp|lia].
Qed.

Lemma copy_file_cases s d : d = Some (copy_file s d) \/ bdata (copy_file s d) = bdata s.
Proof. destruct d as [d|]; [|now right]. cbn [copy_file]. destruct (skip_copy s d); [now left|now right]. Qed.

Lemma backup_other : forall src tgt n, ~ In n (map fst src) -> blookup (backup_files src tgt) n = blookup tgt n.
Proof.
  induction src as [|[m s] r IH]; intros tgt n Hn; [reflexivity|]. cbn [backup_files fold_left fst snd].
  cbn [map fst In] in Hn. fold (backup_files r (bset tgt m (copy_file s (blookup tgt m)))).
  rewrite IH by tauto. apply blookup_bset_other. intro; subst; tauto.
Qed.

Lemma covered_bset tgt src n f :
  fcovered tgt src -> (forall s, blookup src n = Some s -> is_prefix (bdata f) (bdata s)) -> fcovered (bset tgt n f) src.
Proof.
  intros Hc Hf m s d Hs Hd. destruct (fname_eqb m n) eqn:E.
  - apply fname_eqb_eq in E. subst m. rewrite blookup_bset_same in Hd. injection Hd as <-. now apply Hf.
  - rewrite blookup_bset_other in Hd; [now apply (Hc m s d)|]. intros ->. rewrite fname_eqb_refl in E. discriminate.
Qed.

Theorem backup_gives_source : forall src tgt,
  NoDup (map fst src) -> fcovered tgt src ->
  forall n s, blookup src n = Some s -> blookup (backup_files src tgt) n = Some s.
Proof.
  induction src as [|[m s0] r IH]; intros tgt Hnd Hc n s Hl; [discriminate|].
  cbn [map fst] in Hnd. apply NoDup_cons_iff in Hnd. destruct Hnd as [Hm Hr].
  cbn [backup_files fold_left fst snd]. fold (backup_files r (bset tgt m (copy_file s0 (blookup tgt m)))).
  assert (Hcopy : copy_file s0 (blookup tgt m) = s0).
  { destruct (blookup tgt m) as [d|] eqn:Ed; [|now destruct s0]. apply copy_of_prefix.
    apply (Hc m s0 d); [cbn [blookup]; now rewrite fname_eqb_refl|exact Ed]. }
  rewrite Hcopy. cbn [blookup] in Hl. destruct (fname_eqb m n) eqn:E.
  - apply fname_eqb_eq in E. subst m. injection Hl as <-. rewrite backup_other by exact Hm. apply blookup_bset_same.
  - apply IH; [exact Hr| |exact Hl]. apply covered_bset.
    + intros n1 s1 d1 H1. apply (Hc n1 s1 d1). cbn [blookup]. destruct (fname_eqb m n1) eqn:E1; [|exact H1].
      apply fname_eqb_eq in E1. subst n1. elim Hm. now apply (blookup_in r m s1).
    + intros s1 H1. elim Hm. now apply (blookup_in r m s1).
Qed.

Lemma covered_empty src : fcovered [] src.
Proof. intros n s d _ H. discriminate. Qed.

Lemma covered_after_backup src src' tgt :
  NoDup (map fst src) -> fcovered tgt src -> fcovered tgt src' -> appended src src' -> fcovered (backup_files src tgt) src'.
Proof.
  intros Hnd Hc Hc' Happ n s' d Hs' Hd. destruct (blookup src n) as [s|] eqn:Es.
  - rewrite (backup_gives_source src tgt Hnd Hc n s Es) in Hd. injection Hd as <-.
    destruct (Happ n s Es) as (s'' & E1 & E2). congruence.
  - rewrite (backup_other src tgt n (blookup_notin src n Es)) in Hd. now apply (Hc' n s' d).
Qed.

Theorem killed_backup_covered src src' tgt now t' :
  NoDup (map fst src) -> fcovered tgt src -> fcovered tgt src' -> appended src src' ->
  killed_backup src tgt now t' -> fcovered t' src'.
Proof.
  intros Hnd Hc Hc' Happ (done & n & s & rest & img & -> & Himg & ->).
  rewrite map_app in Hnd. cbn [map fst] in Hnd.
  assert (Hn : blookup (done ++ (n, s) :: rest) n = Some s).
  { rewrite blookup_app, blookup_none; [cbn [blookup]; now rewrite fname_eqb_refl|].
    intro Hin. apply NoDup_remove_2 in Hnd. apply Hnd. apply in_or_app. now left. }
  destruct (Happ n s Hn) as (s' & Hs' & Hss').
  (* the files before n are done: the state of a finished Backup of them *)
  assert (HB : fcovered (backup_files done tgt) src').
  { apply covered_after_backup; [exact (nodup_app_l _ _ Hnd)| |exact Hc'|].
    - intros m sm d Hm. apply (Hc m sm d). now rewrite blookup_app, Hm.
    - intros m sm Hm. apply (Happ m sm). now rewrite blookup_app, Hm. }
  destruct img as [f|]; [|exact HB]. apply covered_bset; [exact HB|]. intros s'' Hs''. assert (s'' = s') by congruence. subst s''.
  inversion Himg as [Hu|k Hk|Hdn]; subst.
  - now apply (HB n s' f).
  - apply prefix_trans with (bdata s); [apply prefix_firstn|exact Hss'].
  - destruct (copy_file_cases s (blookup (backup_files done tgt) n)) as [E|E]; [now apply (HB n s' _)|now rewrite E].
Qed.

(* the Backup that follows a killed Backup, the source having only been appended to in between, yields the source *)
Theorem backup_after_killed_backup src src' tgt now t' :
  NoDup (map fst src) -> NoDup (map fst src') -> fcovered tgt src -> fcovered tgt src' -> appended src src' ->
  killed_backup src tgt now t' ->
  forall n s', blookup src' n = Some s' -> blookup (backup_files src' t') n = Some s'.
Proof.
  intros Hnd Hnd' Hc Hc' Happ Hk. apply backup_gives_source; [exact Hnd'|].
  exact (killed_backup_covered src src' tgt now t' Hnd Hc Hc' Happ Hk).
Qed.
