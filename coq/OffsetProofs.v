(* OffsetProofs.v — C09 / C10: OffsetByKey and OffsetByTime (log.go: the lookup, then the offset - and time - of what
   it found) return the offset of exactly the message the specification names. *)
From KV Require Import Base Model Spec SpecFacts LogInv GetProofs KeyProofs KeyInv TimeInv History.

Section Offsets.
Variable H : bytes -> Z.

(* the offset OffsetByKey returns is that of the last live message with exactly that key; it fails with ErrNotFound
   exactly when there is none, with ErrNoIndex without the key index *)
Theorem log_offset_by_key_correct c st k :
  KInv H (cparams c) st -> opened st = Some c ->
  match log_offset_by_key H st k with
  | Ok (_, o) => ckeys c = true /\ option_map moff (last_opt (filter (has_key k) (live (abs st)))) = Some o
  | Err e => if ckeys c then last_opt (filter (has_key k) (live (abs st))) = None /\ classify e = CNotFound
             else classify e = CNoIndex
  end.
Proof.
  intros HK Hc. unfold log_offset_by_key. destruct (ckeys c) eqn:Hkeys.
  - pose proof (log_get_by_key_answer H c st k HK Hc Hkeys) as Ha. unfold key_answer in Ha.
    destruct (log_get_by_key H st k) as [[st' m]|e]; cbn [bind fst snd obs_get] in *;
      destruct (last_opt (filter (has_key k) (live (abs st)))); try discriminate; injection Ha as ->; auto.
  - unfold log_get_by_key, get_cfg. rewrite Hc. cbn [bind]. now rewrite Hkeys.
Qed.

Lemma offset_by_time_of_get st ts :
  check_get_by_time (abs st) true ts (obs_get (log_get_by_time H st ts)) = true ->
  match log_offset_by_time H st ts with
  | Ok (_, (o, t)) => exists m, find (fun m => ts <=? mtime m) (live (abs st)) = Some m /\ moff m = o /\ mtime m = t
  | Err e => find (fun m => ts <=? mtime m) (live (abs st)) = None
  end.
Proof.
  unfold log_offset_by_time, check_get_by_time. cbn [negb].
  destruct (log_get_by_time H st ts) as [[st' m]|e]; cbn [bind fst snd obs_get];
    destruct (find (fun m0 => ts <=? mtime m0) (live (abs st))) as [m0|]; intros Hchk; try discriminate.
  - apply msg_eqb_eq in Hchk. subst m0. exists m. auto.
  - destruct (live (abs st)); discriminate.
  - reflexivity.
Qed.

(* the virtual handle of a read-only Open on an empty directory: no live message, GetByTime says so *)
Lemma virt_get_by_time st c ts : Virt st -> opened st = Some c ->
  check_get_by_time (abs st) (ctimes c) ts (obs_get (log_get_by_time H st ts)) = true.
Proof.
  intros (Hv & (v & Hs) & _) Hc. destruct st as [sg wc op lv]. cbn in *. subst.
  unfold log_get_by_time, get_cfg. cbn [opened bind].
  unfold check_get_by_time. destruct (ctimes c); reflexivity.
Qed.

Lemma tgood_get_by_time_any p T st c ts :
  TGood H p T st -> opened st = Some c ->
  check_get_by_time (abs st) (ctimes c) ts (obs_get (log_get_by_time H st ts)) = true.
Proof.
  intros HT Hc. destruct (lvirt st) eqn:Hv; [|exact (tgood_get_by_time H p T st c ts HT Hc Hv)].
  destruct HT as ((HG & _) & _). destruct HG as [(Ho & _)|[HI|HV]]; [congruence| |now apply virt_get_by_time].
  rewrite (Inv_lvirt _ HI) in Hv. discriminate.
Qed.

Theorem get_by_time_on_all_monotone_histories p ops c ts :
  Forall (uses p) ops -> thist_ok 0 ops ->
  let st := fst (hrun H init_state ops) in
  opened st = Some c ->
  check_get_by_time (abs st) (ctimes c) ts (obs_get (log_get_by_time H st ts)) = true.
Proof.
  intros Hu Hok st. exact (tgood_get_by_time_any p _ st c ts (thistory H p ops 0 init_state (tgood_init H p) Hu Hok)).
Qed.

(* OffsetByTime on every state reached by a history with fixed index options and non-decreasing, non-negative publish
   times: the offset and time of the first live message not before ts *)
Theorem offset_by_time_on_monotone_histories p ops c ts :
  Forall (uses p) ops -> thist_ok 0 ops ->
  let st := fst (hrun H init_state ops) in
  opened st = Some c -> lvirt st = false -> ctimes c = true ->
  match log_offset_by_time H st ts with
  | Ok (_, (o, t)) => exists m, find (fun m => ts <=? mtime m) (live (abs st)) = Some m /\ moff m = o /\ mtime m = t
  | Err e => find (fun m => ts <=? mtime m) (live (abs st)) = None
  end.
Proof.
  intros Hu Hok st Hc _ Ht. pose proof (get_by_time_on_all_monotone_histories p ops c ts Hu Hok Hc) as Hg. rewrite Ht in Hg.
  exact (offset_by_time_of_get st ts Hg).
Qed.

End Offsets.
