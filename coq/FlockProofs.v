(* FlockProofs.v — C19: the lock table of Flock.v.  finv (the two counts of handles agree with the lock state, an
   exclusive lock leaves no shared one, handle identities are distinct) holds after any sequence of operations. *)
From KV Require Import Base Flock.
From Coq Require Import ZifyBool ZifyNat.

Lemma find_handle_none_notin t h : find_handle t h = None -> ~ In h (map fst (handles t)).
Proof.
  unfold find_handle. destruct (find (fun x => Nat.eqb (fst x) h) (handles t)) as [[a m]|] eqn:E; [discriminate|].
  intros _ Hin. apply in_map_iff in Hin. destruct Hin as (x & Hx & Hin).
  pose proof (find_none _ _ E x Hin) as Hn. cbn in Hn. rewrite Hx, Nat.eqb_refl in Hn. discriminate.
Qed.

Lemma find_handle_some t h m : find_handle t h = Some m ->
  find (fun x => Nat.eqb (fst x) h) (handles t) = Some (h, m).
Proof.
  unfold find_handle. destruct (find (fun x => Nat.eqb (fst x) h) (handles t)) as [[a am]|] eqn:E; [|discriminate].
  intros [= ->]. apply find_some in E. destruct E as [_ E]. apply Nat.eqb_eq in E. now subst.
Qed.

Lemma filter_notin (l : list (nat * hmode)) h :
  ~ In h (map fst l) -> filter (fun x => negb (Nat.eqb (fst x) h)) l = l.
Proof.
  induction l as [|[b bm] l IH]; intros Hn; [reflexivity|]. cbn [filter fst].
  destruct (Nat.eqb_spec b h) as [->|_].
  - elim Hn. now left.
  - cbn [negb]. f_equal. apply IH. intro Hin. apply Hn. now right.
Qed.

Lemma filter_nodup {A B} (g : A -> B) f l : NoDup (map g l) -> NoDup (map g (filter f l)).
Proof.
  induction l as [|a l IH]; cbn [map filter]; [trivial|]. intros Hnd. apply NoDup_cons_iff in Hnd. destruct Hnd as [Ha Hnd].
  destruct (f a); [|now apply IH]. cbn [map]. constructor; [|now apply IH].
  intro Hin. apply Ha. apply in_map_iff in Hin. destruct Hin as (x & Hx & Hin). apply filter_In in Hin.
  apply in_map_iff. exists x. tauto.
Qed.

Lemma count_mode_cons m h hm l :
  count_mode m ((h, hm) :: l) = ((match hm, m with HRW, HRW | HRO, HRO => 1 | _, _ => 0 end) + count_mode m l)%nat.
Proof. now destruct hm, m. Qed.

(* as far as the counts go, closing a handle moves it to the front and drops it *)
Lemma count_mode_remove m l h hm :
  NoDup (map fst l) -> find (fun x => Nat.eqb (fst x) h) l = Some (h, hm) ->
  count_mode m l = count_mode m ((h, hm) :: filter (fun x => negb (Nat.eqb (fst x) h)) l).
Proof.
  induction l as [|[a am] l IH]; intros Hnd Hf; [discriminate|].
  cbn [map fst] in Hnd. apply NoDup_cons_iff in Hnd. destruct Hnd as [Ha Hnd].
  cbn [find filter fst] in *. destruct (Nat.eqb a h); cbn [negb].
  - injection Hf as -> ->. now rewrite (filter_notin l h Ha).
  - rewrite !count_mode_cons, (IH Hnd Hf), count_mode_cons. apply Nat.add_shuffle3.
Qed.

Lemma rw_free t : excl t || negb (Nat.eqb (shared t) 0) = false -> excl t = false /\ shared t = O.
Proof.
  intros E. apply orb_false_elim in E. destruct E as [He Hs]. apply negb_false_iff, Nat.eqb_eq in Hs. now split.
Qed.

(* every failure of Open, also one after the lock was taken (torn log, corrupt index: the deferred unlock of klevdb.Open),
   leaves the table as it was *)
Lemma fopen_cases t h ro check t' r :
  fstep t (FOpen h ro check) = (t', r) ->
  (t' = t /\ r <> FOk) \/
  (find_handle t h = None /\ r = FOk /\ excl t = false /\
   if ro then t' = mkFtab (excl t) (S (shared t)) ((h, HRO) :: handles t) (dir_ok t) (idx_bad t) (log_bad t)
   else shared t = O /\ t' = mkFtab true (shared t) ((h, HRW) :: handles t) (dir_ok t) (idx_bad t) (log_bad t)).
Proof.
  assert (Hno : forall r0 X, r0 <> FOk -> (t, r0) = (t', r) -> (t' = t /\ r <> FOk) \/ X)
    by (intros r0 X Hr [= <- <-]; now left).
  cbn [fstep]. destruct (find_handle t h); [apply Hno; discriminate|]. destruct (negb (dir_ok t)); [apply Hno; discriminate|]. destruct ro.
  - destruct (excl t); [apply Hno; discriminate|]. destruct (log_bad t && check); [apply Hno; discriminate|].
    destruct (idx_bad t && check); [apply Hno; discriminate|]. intros [= <- <-]. now right.
  - destruct (excl t || negb (Nat.eqb (shared t) 0)) eqn:E; [apply Hno; discriminate|]. apply rw_free in E. destruct E as [He Hs].
    destruct (log_bad t && check); [apply Hno; discriminate|]. destruct (idx_bad t); [apply Hno; discriminate|]. intros [= <- <-]. now right.
Qed.

Theorem open_rw_needs_free t h check t' :
  find_handle t h = None -> fstep t (FOpen h false check) = (t', FOk) -> excl t = false /\ shared t = O.
Proof. intros _ E. destruct (fopen_cases _ _ _ _ _ _ E) as [[_ Hr]|(_ & _ & He & Hs & _)]; [now elim Hr|now split]. Qed.

Theorem open_ro_needs_no_writer t h check t' :
  find_handle t h = None -> fstep t (FOpen h true check) = (t', FOk) -> excl t = false.
Proof. intros _ E. destruct (fopen_cases _ _ _ _ _ _ E) as [[_ Hr]|(_ & _ & He & _)]; [now elim Hr|exact He]. Qed.

Theorem failed_open_releases t h ro check c : fstep t (FOpen h ro check) = (fst (fstep t (FOpen h ro check)), FErr c) ->
  fst (fstep t (FOpen h ro check)) = t.
Proof. intros E. destruct (fopen_cases _ _ _ _ _ _ E) as [[Ht _]|(_ & Hr & _)]; [exact Ht|discriminate Hr]. Qed.

Theorem fstep_inv t o : finv t -> finv (fst (fstep t o)).
Proof.
  intros Hinv. pose proof Hinv as (Hro & Hrw & Hex & Hnd).
  destruct o as [h ro check|h|h|h|b|b|b]; try exact Hinv.
  - destruct (fstep t (FOpen h ro check)) as [t' r] eqn:E. cbn [fst].
    destruct (fopen_cases _ _ _ _ _ _ E) as [[-> _]|(Hf & _ & He & Hr)]; [exact Hinv|].
    apply find_handle_none_notin in Hf. rewrite He in Hrw.
    destruct ro; [|destruct Hr as [Hs Hr]]; rewrite Hr; unfold finv; cbn [handles shared excl map fst];
      rewrite !count_mode_cons, Hro, Hrw.
    + rewrite He. repeat split; [discriminate|now constructor].
    + repeat split; [intros _; exact Hs|now constructor].
  - cbn [fstep]. destruct (find_handle t h) as [m|] eqn:Ef; [|exact Hinv].
    pose proof (fun m' => count_mode_remove m' _ h m Hnd (find_handle_some t h m Ef)) as Hc.
    rewrite (Hc HRO) in Hro. rewrite (Hc HRW) in Hrw. rewrite count_mode_cons in Hro, Hrw.
    pose proof (filter_nodup fst (fun x => negb (Nat.eqb (fst x) h)) _ Hnd) as Hnd'.
    destruct m; cbn [fst]; unfold finv; cbn [handles shared excl]; fold (remove_handle t h) in *.
    + destruct (excl t); [|discriminate]. injection Hrw as Hrw. repeat split; [exact Hro|exact Hrw|discriminate|exact Hnd'].
    + rewrite <- Hro. repeat split; [exact Hrw|intros He; now rewrite (Hex He) in Hro|exact Hnd'].
  - cbn [fstep]. destruct (find_handle t h) as [[]|]; exact Hinv.
  - cbn [fstep]. destruct (find_handle t h) as [[]|]; exact Hinv.
Qed.

Lemma finv0 : finv ftab0.
Proof. repeat split; try reflexivity; try discriminate. constructor. Qed.

Lemma fold_left_inv {A B} (P : A -> Prop) (f : A -> B -> A) l :
  (forall a x, P a -> P (f a x)) -> forall a, P a -> P (fold_left f l a).
Proof. intros Hf. induction l as [|x l IH]; cbn [fold_left]; auto. Qed.

Theorem frun_inv ops : finv (fst (frun ops)).
Proof.
  apply (fold_left_inv (fun acc => finv (fst acc))); [|exact finv0].
  intros [t rs] o Ht. pose proof (fstep_inv t o Ht) as Ht'. now destruct (fstep t o).
Qed.

Lemma finv_exclusive t :
  finv t -> excl t = true -> shared t = O /\ count_mode HRW (handles t) = 1%nat /\ count_mode HRO (handles t) = O.
Proof. intros (Hro & Hrw & Hex & _) He. rewrite He in Hrw. rewrite (Hex He) in Hro. now rewrite (Hex He). Qed.

Theorem exclusive_means_alone ops :
  let t := fst (frun ops) in
  excl t = true -> shared t = O /\ count_mode HRW (handles t) = 1%nat /\ count_mode HRO (handles t) = O.
Proof. exact (finv_exclusive _ (frun_inv ops)). Qed.

Theorem readonly_rejects t h :
  find_handle t h = Some HRO ->
  fstep t (FPublish h) = (t, FErr CReadonly) /\ fstep t (FDelete h) = (t, FErr CReadonly).
Proof. intros Hf. cbn [fstep]. rewrite Hf. split; reflexivity. Qed.
