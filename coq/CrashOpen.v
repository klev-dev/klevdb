(* C05 at the level of the whole directory: a directory all of whose segments are well formed except that
   the index file of the NEWEST segment holds anything at all (missing, short, stale, torn: what a crash during a
   Publish, a rollover or an index write leaves) opens with Recover to a handle that satisfies Inv and shows exactly the
   records of the log files; hence a Publish cut short after any number of complete records, whatever became of the
   index file, reopens to the log before it plus a prefix of the batch. *)
From KV Require Import Base Model Spec SegProofs LogInv PublishProofs OpenProofs RecoverProofs.
From Coq Require Import ZifyBool ZifyNat.

Section CrashOpen.
Variable H : bytes -> Z.

(* everything seg_inv says, except about the index file *)
Definition seg_inv_noidx (s : seg) : Prop :=
  recs_sorted (srecs s) /\ (forall m, In m (srecs s) -> 0 <= moff m) /\ first_is_base s /\ 0 <= sbase s.

Lemma seg_inv_noidx_of s : seg_inv s -> seg_inv_noidx s.
Proof. intros (A & B & C & _ & D). repeat split; assumption. Qed.

Lemma noidx_any_index s ix : seg_inv_noidx s -> seg_inv_noidx (set_idx s ix).
Proof. intros (A & B & C & D). repeat split; assumption. Qed.

Lemma open_log_noidx s : seg_inv_noidx s -> open_log_reader s = Ok (sver s).
Proof.
  intros (_ & _ & Hfb & _). unfold open_log_reader, first_is_base in *.
  destruct (sver s); [|reflexivity]. destruct (srecs s) as [|m r]; [reflexivity|].
  rewrite Hfb, Z.eqb_refl. reflexivity.
Qed.

Lemma items_eqb_refl a : list_eqb item_eqb a a = true.
Proof. now apply items_eqb_eq. Qed.

Lemma segment_recover_any p s :
  seg_inv_noidx s ->
  exists s', segment_recover H p s = Ok s' /\ seg_inv s' /\ same_recs s s' /\ segment_recover H p s' = Ok s'.
Proof.
  intros Hn. pose proof Hn as (A & B & C & D). unfold segment_recover. rewrite (open_log_noidx s Hn). cbn [bind].
  assert (Hnone : seg_inv (set_idx s None)).
  { repeat split; try assumption. intros iv items E. discriminate. }
  destruct (sidx s) as [ix|] eqn:Esi.
  - destruct (open_idx_reader s ix) as [items|e] eqn:Eo.
    + destruct (list_eqb item_eqb items (derive H p (sver s) (srecs s))) eqn:El.
      * (* the index file is the derived one *)
        exists s. split; [reflexivity|]. apply items_eqb_eq in El.
        assert (Hs : seg_inv s).
        { repeat split; try assumption. intros iv its Ei. rewrite Esi in Ei. injection Ei as ->.
          right. unfold open_idx_reader in Eo. assert (items = its) by (destruct iv; [destruct its as [|it r]; [|destruct (ioff it =? sbase s)]|]; congruence).
          subst its. rewrite El. apply derive_from_match. }
        split; [exact Hs|]. split; [split; reflexivity|]. rewrite (open_log_noidx s Hn). cbn [bind].
        rewrite Esi, Eo, El. now rewrite items_eqb_refl.
      * eexists. split; [reflexivity|].
        assert (Hs : seg_inv (set_idx s (Some (fst ix, derive H p (sver s) (srecs s))))).
        { repeat split; try assumption. intros iv its Ei. cbn in Ei. injection Ei as <- <-. right. apply derive_from_match. }
        split; [exact Hs|]. split; [split; reflexivity|].
        cbn [set_idx sidx srecs sver sbase]. rewrite (open_log_noidx _ (noidx_any_index s _ Hn)). cbn [bind set_idx sidx sver srecs].
        rewrite (idx_reader_ok _ (fst ix) _ Hs eq_refl). cbn [set_idx srecs sver]. now rewrite items_eqb_refl.
    + exists (set_idx s None). split; [reflexivity|]. split; [exact Hnone|]. split; [split; reflexivity|].
      cbn [set_idx sidx]. rewrite (open_log_noidx _ (noidx_any_index s None Hn)). reflexivity.
  - exists s. split; [reflexivity|].
    assert (Hs : seg_inv s) by (repeat split; try assumption; intros iv its Ei; congruence).
    split; [exact Hs|]. split; [split; reflexivity|]. rewrite (open_log_noidx s Hn). cbn [bind]. now rewrite Esi.
Qed.

Lemma map_last_snoc {A} (f : A -> res A) front x : map_last f (front ++ [x]) = do y <- f x; Ok (front ++ [y]).
Proof. apply map_last_app. Qed.

(* a directory as a crash leaves it *)
Definition crash_dir (l : list seg) : Prop :=
  exists front hd, l = front ++ [hd] /\ Forall seg_inv front /\ seg_inv_noidx hd /\ chain_ok l.

Theorem crash_open_recovers st c0 :
  opened st = None -> lvirt st = false -> crash_dir (segs st) ->
  crecover (norm_cfg c0) = true -> cro (norm_cfg c0) = false ->
  forall st', log_open H st c0 = Ok st' -> Inv st' /\ abs st' = abs_dir (segs st).
Proof.
  intros Ho Hv (front & hd & Es & HF & Hn & Hch) Hrec Hro st' Hopen.
  destruct (segment_recover_any (cparams (norm_cfg c0)) hd Hn) as (hd' & E1 & Hi' & Hsr & Eid).
  set (st1 := set_segs st (front ++ [hd'])).
  assert (H2 : Forall2 same_recs (segs st) (front ++ [hd'])).
  { rewrite Es. apply Forall2_app_recs; [apply Forall2_refl_recs|constructor; [exact Hsr|constructor]]. }
  assert (Hcl : closed_dir st1).
  { split; [exact Ho|]. split; [exact Hv|]. split.
    - cbn [st1 set_segs segs]. apply Forall_app. split; [exact HF|constructor; [exact Hi'|constructor]].
    - cbn [st1 set_segs segs]. apply (chain_ok_recs (segs st)); [exact H2|]. rewrite Es in Hch |- *. exact Hch. }
  assert (Hml : map_last (segment_recover H (cparams (norm_cfg c0))) (front ++ [hd']) =
                map_last (segment_recover H (cparams (norm_cfg c0))) (front ++ [hd])) by now rewrite !map_last_snoc, E1, Eid.
  assert (Hsame : log_open H st1 c0 = log_open H st c0).
  { unfold log_open. cbn [st1 set_segs opened segs]. rewrite Ho, Es, Hro, Hrec.
    destruct front; cbn [app] in Hml |- *; now rewrite Hml. }
  rewrite <- Hsame in Hopen.
  destruct (log_open_ok H st1 c0 Hcl) with (st' := st') as [HI Ha]; [|exact Hopen|].
  - cbn [st1 set_segs segs]. intro E. apply (f_equal (@length seg)) in E. rewrite app_length in E. cbn in E. lia.
  - split; [exact HI|]. rewrite Ha. cbn [st1 set_segs segs]. now apply abs_dir_recs.
Qed.

(* the newest index file replaced by anything *)
Definition damage_head_index (l : list seg) (ix : option (ver * list item)) : list seg :=
  match rev l with [] => [] | hd :: r => rev r ++ [set_idx hd ix] end.

Lemma damage_crash_dir l ix : l <> [] -> Forall seg_inv l -> chain_ok l ->
  crash_dir (damage_head_index l ix) /\ Forall2 same_recs l (damage_head_index l ix).
Proof.
  intros Hne HF Hch. destruct (@exists_last _ l Hne) as (pre & hd & ->).
  unfold damage_head_index. rewrite rev_app_distr. cbn [rev app]. rewrite rev_involutive.
  apply Forall_app in HF. destruct HF as [Hpre Hhd]. inversion Hhd as [|? ? Hh _]; subst.
  assert (H2 : Forall2 same_recs (pre ++ [hd]) (pre ++ [set_idx hd ix])).
  { apply Forall2_app_recs; [apply Forall2_refl_recs|constructor; [split; reflexivity|constructor]]. }
  split; [|exact H2]. exists pre, (set_idx hd ix). split; [reflexivity|]. split; [exact Hpre|].
  split; [apply noidx_any_index; now apply seg_inv_noidx_of|]. now apply (chain_ok_recs (pre ++ [hd])).
Qed.

(* a Publish cut short after k complete records of its batch - rollover done or not as the state required, and
   whatever the crash left of the writing segment's index file (nothing, a prefix, a torn item, stale items) - reopens
   with Recover to exactly the log before it plus the first k messages of the batch, with the offsets Publish assigns *)
Theorem publish_crash_recovers st c ms k ix c0 :
  Inv st -> opened st = Some c -> cro c = false -> sizes_ok (firstn k ms) ->
  exists st_k,
    log_publish H st (firstn k ms) = Ok (st_k, anext (abs st) + zlen (firstn k ms)) /\
    forall st',
      crecover (norm_cfg c0) = true -> cro (norm_cfg c0) = false ->
      log_open H (mkState (damage_head_index (segs st_k) ix) 0 None false) c0 = Ok st' ->
      Inv st' /\ abs st' = spec_publish (abs st) (firstn k ms).
Proof.
  intros HI Hc Hro Hsz.
  destruct (log_publish_correct H st (firstn k ms) HI (ex_intro _ c (conj Hc Hro)) Hsz) as (st_k & Ep & HIk & Hak & _).
  exists st_k. split; [exact Ep|]. intros st' Hrec Hro' Hopen.
  destruct HIk as (Hne & HF & Hch & _).
  destruct (damage_crash_dir (segs st_k) ix Hne HF Hch) as [Hcd H2].
  destruct (crash_open_recovers (mkState (damage_head_index (segs st_k) ix) 0 None false) c0 eq_refl eq_refl Hcd Hrec Hro' st' Hopen) as [HI' Ha'].
  split; [exact HI'|]. rewrite Ha'. cbn [segs]. rewrite (abs_dir_recs _ _ H2). rewrite <- Hak. symmetry. apply abs_dir_abs.
Qed.

End CrashOpen.
