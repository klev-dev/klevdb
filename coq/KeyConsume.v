(* KeyConsume.v — C09: ConsumeByKey on the log returns exactly the live messages with that key, in offset
   order, never one with another key, never steps over one, and ends at NextOffset: first reader.ConsumeByKey on a
   segment whose index is the derived one, then the walk of log.ConsumeByKey over the segments. *)
From KV Require Import Base Model ListAux SearchProofs ReaderProofs Spec SpecFacts LogInv ConsumeProofs
     KeyProofs.
From Coq Require Import ZifyBool ZifyNat.

Section KeyConsume.
Variable H : bytes -> Z.
Notation KInv := (KInv H).
Notation exact_items := (exact_items H).

Definition kcand (k : bytes) (off : Z) (recs : list msg) : list msg :=
  filter (fun m => negb (moff m <? off) && has_key k m) recs.

Lemma cbk_loop_spec s k off : forall (pl : list (Z * msg)) room,
  (forall pm, In pm pl -> read_at s (fst pm) = Ok (snd pm)) ->
  cbk_loop s (map fst pl) k off room = Ok (firstn (Nat.max 1 room) (kcand k off (map snd pl))).
Proof.
  induction pl as [|pm pl IH]; intros room Hr; [now rewrite firstn_nil|].
  cbn [map cbk_loop]. rewrite (Hr pm (or_introl eq_refl)). cbn [bind].
  assert (Hr' : forall x, In x pl -> read_at s (fst x) = Ok (snd x)) by (intros x Hx; apply Hr; now right).
  unfold kcand. cbn [filter]. unfold has_key at 1.
  destruct (moff (snd pm) <? off); cbn [negb andb]; [apply IH; exact Hr'|].
  destruct (bytes_eqb k (mkey (snd pm))); [|apply IH; exact Hr'].
  destruct room as [|[|room']]; [reflexivity..|]. now rewrite (IH (S room') Hr').
Qed.

Lemma firstn_room {A} (l : list A) n max : (length l <= n)%nat ->
  firstn (Nat.max 1 (Z.to_nat (Z.min max (Z.of_nat n)))) l = firstn (Z.to_nat (Z.max max 1)) l.
Proof. intros Hl. destruct (Z.le_gt_cases (Z.of_nat n) max); [now rewrite !firstn_all2 by lia|f_equal; lia]. Qed.

Theorem reader_consume_by_key_spec p s items k off max :
  pkeys p = true -> exact_items p s items -> seg_ok s items -> off <> OffsetNewest ->
  let ms := firstn (Z.to_nat (Z.max max 1)) (kcand k off (srecs s)) in
  reader_consume_by_key H s items k off max =
  Ok (match last_opt ms with Some m => moff m + 1 | None => recs_next s end, ms).
Proof.
  intros Hk Hex Hok Hnew ms. destruct (keys_lookup_exact H p s items (H k) Hk Hex) as (hm & Hpos & Hsnd & Hrd).
  unfold reader_consume_by_key, keys_lookup. rewrite (proj2 (Z.eqb_neq _ _) Hnew), Hpos, (idx_next_recs s items Hok).
  (* an empty lookup answers as the loop over no positions does *)
  transitivity (do ms0 <- cbk_loop s (map fst hm) k off (Z.to_nat (Z.min max (zlen (map fst hm))));
                match last_opt ms0 with None => Ok (recs_next s, []) | Some m => Ok (moff m + 1, ms0) end);
    [destruct (map fst hm); reflexivity|].
  rewrite (cbk_loop_spec s k off hm _ Hrd). cbn [bind].
  assert (Hcand : kcand k off (map snd hm) = kcand k off (srecs s)).
  { rewrite Hsnd. apply filter_filter_imp. intros m E. apply andb_prop in E. apply (has_key_hash H), E. }
  unfold zlen. rewrite map_length, firstn_room by (rewrite <- (map_length snd hm); apply filter_length_le).
  rewrite Hcand. fold ms.
  destruct (last_opt ms) eqn:El; [reflexivity|]. apply last_opt_none in El. now rewrite El.
Qed.

Definition key_run (M : nat) (cands : list msg) (nxt : Z) (o : Z * list msg) : Prop :=
  is_prefix (snd o) cands = true /\ (length (snd o) <= M)%nat /\
  match last_opt (snd o) with Some x => fst o = moff x + 1 | None => cands = [] /\ fst o = nxt end.

Lemma key_run_firstn M cand rest nxt nx :
  firstn M cand <> [] ->
  key_run M (cand ++ rest) nxt (match last_opt (firstn M cand) with Some x => moff x + 1 | None => nx end, firstn M cand).
Proof.
  intros Hne. split; [apply is_prefix_firstn|]. split; [apply firstn_length_le|]. cbn [fst snd].
  destruct (last_opt (firstn M cand)) eqn:El; [reflexivity|]. now apply last_opt_none in El.
Qed.

Lemma key_run_check a k off max o :
  off <> OffsetNewest ->
  key_run (Z.to_nat (Z.max max 1)) (filter (has_key k) (from_off (live a) off)) (anext a) o ->
  check_consume_by_key a true k off max (OOk o) = true.
Proof.
  intros Hnew. destruct o as [n ms]. intros (Hpre & Hlen & Hlast). cbn [fst snd] in *.
  unfold check_consume_by_key. cbn [negb]. destruct (anext a <? off); [reflexivity|]. rewrite (proj2 (Z.eqb_neq _ _) Hnew).
  destruct ms as [|m0 mr].
  - destruct Hlast as [-> ->]. cbn [existsb negb]. now rewrite Z.leb_refl, Z.eqb_refl, orb_true_r.
  - cbn [last_opt] in *. rewrite Hpre, Hlast, Z.eqb_refl.
    replace (zlen (m0 :: mr) <=? Z.max max 1) with true by (unfold zlen; lia). reflexivity.
Qed.

Lemma kcand_all k off recs : (forall m, In m recs -> off <= moff m) -> kcand k off recs = filter (has_key k) recs.
Proof.
  intros Hge. apply filter_ext_in. intros m Hm. specialize (Hge m Hm). destruct (moff m <? off) eqn:E; [lia|reflexivity].
Qed.

Lemma kcand_ge k off recs : filter (has_key k) (ge_filter off recs) = kcand k off recs.
Proof.
  unfold ge_filter, kcand. induction recs as [|m r IH]; [reflexivity|]. cbn [filter].
  destruct (off <=? moff m) eqn:E1; destruct (moff m <? off) eqn:E2; try lia; cbn [negb andb filter]; now rewrite IH.
Qed.

Lemma firstn_nil_inv {A} (l : list A) n : (1 <= n)%nat -> firstn n l = [] -> l = [].
Proof. intros Hn E. destruct n; [lia|]. destruct l; [reflexivity|discriminate]. Qed.

(* the test "is this the last segment" of the walk, at the segment after pre *)
Lemma last_index_split {A} (pre : list A) x post :
  (zlen (pre ++ x :: post) - 1 <=? zlen pre) = match post with [] => true | _ :: _ => false end.
Proof. unfold zlen. rewrite app_length. destruct post; cbn [length]; lia. Qed.

Lemma wnext_last st s : znth (segs st) (zlen (segs st) - 1) = Some s -> wnext st = recs_next s.
Proof. unfold wnext. rewrite last_opt_znth. now intros ->. Qed.

(* rl and nxt stay what they are while the index files change under the walk *)
Lemma consume_by_key_fwd_spec c k max rl nxt : forall n st rpre recs rpost off,
  KInv (cparams c) st -> opened st = Some c -> ckeys c = true -> off <> OffsetNewest ->
  map srecs (segs st) = rl -> wnext st = nxt -> rl = rpre ++ recs :: rpost -> (length rpost < n)%nat ->
  exists o, obs_consume (consume_by_key_fwd H c st k n (zlen rpre) off max) = OOk o /\
            key_run (Z.to_nat (Z.max max 1)) (kcand k off recs ++ filter (has_key k) (concat rpost)) nxt o.
Proof.
  induction n as [|n IH]; intros st rpre recs rpost off HK Hc Hkeys Hnew Hrl Hnx Hsplit Hn; [now apply Nat.nlt_0_r in Hn|].
  cbn [consume_by_key_fwd].
  assert (Hlen : zlen (segs st) = zlen (rpre ++ recs :: rpost)) by (now rewrite <- Hsplit, <- Hrl, zlen_map).
  pose proof (znth_mid rpre recs rpost) as Hz. rewrite <- Hsplit, <- Hrl, znth_map in Hz.
  destruct (znth (segs st) (zlen rpre)) as [s|] eqn:Hs; [|discriminate]. injection Hz as Hrs.
  destruct (with_index_step H c st _ s HK Hc Hs) as (st1 & s' & items & -> & Hsh & Hok & Hex & HK1 & Hc1 & Hrl1 & Hnx1).
  cbn [bind]. rewrite (reader_consume_by_key_spec (cparams c) s' items k off max Hkeys Hex Hok Hnew). cbn [bind].
  rewrite (same_shape_recs_next _ _ Hsh), Hlen, last_index_split. destruct Hsh as (-> & _). rewrite Hrs.
  destruct (firstn (Z.to_nat (Z.max max 1)) (kcand k off recs)) as [|m0 mr] eqn:Ef.
  - (* nothing here: the answer is that of the next segment, or NextOffset after the last one *)
    rewrite (firstn_nil_inv _ (Z.to_nat (Z.max max 1)) ltac:(lia) Ef). cbn [last_opt app].
    destruct rpost as [|recs2 rpost'].
    + eexists. split; [reflexivity|]. split; [reflexivity|]. split; [apply Nat.le_0_l|]. split; [reflexivity|]. cbn [fst].
      rewrite <- Hnx. symmetry. apply wnext_last. rewrite Hlen, zlen_app, Z.add_simpl_r. exact Hs.
    + replace (zlen rpre + 1) with (zlen (rpre ++ [recs])) by (now rewrite zlen_app).
      destruct (IH st1 (rpre ++ [recs]) recs2 rpost' OffsetOldest HK1 Hc1 Hkeys ltac:(discriminate) (eq_trans Hrl1 Hrl)
                  (eq_trans Hnx1 Hnx) ltac:(now rewrite <- app_assoc) ltac:(now apply Nat.succ_lt_mono)) as (o & Ho & Hrun).
      exists o. split; [exact Ho|]. cbn [concat]. rewrite filter_app, <- (kcand_all k OffsetOldest recs2); [exact Hrun|].
      (* offsets are not negative *)
      assert (Hin : In recs2 (map srecs (segs st))) by (rewrite Hrl, Hsplit; apply in_or_app; right; right; now left).
      apply in_map_iff in Hin. destruct Hin as (s2 & <- & Hs2).
      destruct (proj1 (Forall_forall _ _) (Inv_seg_inv _ (proj1 HK)) s2 Hs2) as (_ & Hnn & _).
      intros m Hm. now apply Z.le_trans with 0; [|apply Hnn].
  - rewrite <- Ef. eexists. split; [reflexivity|]. apply key_run_firstn. now rewrite Ef.
Qed.

Lemma log_consume_by_key_newest c st k max :
  KInv (cparams c) st -> opened st = Some c -> ckeys c = true ->
  obs_consume (log_consume_by_key H st k OffsetNewest max) = OOk (anext (abs st), []).
Proof.
  intros HK Hc Hkeys. pose proof HK as ((Hne & _) & _). unfold log_consume_by_key, get_cfg. rewrite Hc. cbn [bind].
  rewrite Hkeys. cbn [negb].
  assert (Hbne : bases (segs st) <> []) by (unfold bases; destruct (segs st); [congruence|discriminate]).
  rewrite (seg_consume_newest _ Hbne). cbn [bind]. unfold bases. rewrite zlen_map. cbn [consume_by_key_fwd].
  destruct (znth_in_range (segs st) (zlen (segs st) - 1)) as [hd Hhd];
    [unfold zlen; destruct (segs st); [congruence|cbn [length]; lia]|].
  destruct (with_index_step H c st _ hd HK Hc Hhd) as (st1 & s' & items & -> & Hsh & Hok & _).
  cbn [bind]. unfold reader_consume_by_key. change (OffsetNewest =? OffsetNewest) with true. cbn [bind].
  rewrite Z.leb_refl. cbn [obs_consume].
  now rewrite (idx_next_recs s' items Hok), (same_shape_recs_next _ _ Hsh), <- (wnext_last st hd Hhd).
Qed.

Theorem log_consume_by_key_run c st k off max :
  KInv (cparams c) st -> opened st = Some c -> ckeys c = true -> off <> OffsetNewest ->
  exists o, obs_consume (log_consume_by_key H st k off max) = OOk o /\
            key_run (Z.to_nat (Z.max max 1)) (filter (has_key k) (from_off (live (abs st)) off)) (anext (abs st)) o.
Proof.
  intros HK Hc Hkeys Hnew. pose proof HK as (HI & _).
  pose proof (Inv_seg_inv _ HI) as HF. pose proof (Inv_chain _ HI) as Hch.
  unfold log_consume_by_key, get_cfg. rewrite Hc. cbn [bind]. rewrite Hkeys. cbn [negb].
  destruct (consume_selects (segs st) off (Inv_segs_ne _ HI) HF Hch Hnew) as (pre & s & post & Hsplit & -> & Hb & Ha).
  cbn [bind].
  destruct (consume_by_key_fwd_spec c k max _ _ (S (length (segs st))) st (map srecs pre) (srecs s) (map srecs post) off
              HK Hc Hkeys Hnew eq_refl eq_refl) as (o & Ho & Hrun);
    [now rewrite Hsplit, map_app|rewrite Hsplit, app_length, map_length; cbn; lia|].
  rewrite zlen_map in Ho. exists o. split; [exact Ho|].
  change (live (abs st)) with (all_recs (segs st)). rewrite Hsplit in HF, Hch |- *.
  now rewrite (from_off_sel pre s post off HF Hch Hb Ha), filter_app, kcand_ge.
Qed.

Theorem log_consume_by_key_correct c st k off max :
  KInv (cparams c) st -> opened st = Some c ->
  check_consume_by_key (abs st) (ckeys c) k off max (obs_consume (log_consume_by_key H st k off max)) = true.
Proof.
  intros HK Hc. destruct (ckeys c) eqn:Hkeys.
  - destruct (Z.eq_dec off OffsetNewest) as [->|Hnew].
    + rewrite (log_consume_by_key_newest c st k max HK Hc Hkeys). unfold check_consume_by_key. cbn [negb].
      destruct (anext (abs st) <? OffsetNewest); [reflexivity|apply Z.eqb_refl].
    + destruct (log_consume_by_key_run c st k off max HK Hc Hkeys Hnew) as (o & -> & Hrun).
      now apply key_run_check.
  - unfold log_consume_by_key, get_cfg. rewrite Hc. cbn [bind]. now rewrite Hkeys.
Qed.

End KeyConsume.
