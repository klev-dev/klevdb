(* The exact-index invariant KInv is preserved by every operation of a session that keeps its
   index options p, and across Close / Open / index removal / Migrate / Recover with the same options:
   every reachable state of such a history satisfies it (C09, C10, C11). *)
From KV Require Import Base Model ListAux LogInv PublishProofs DeleteProofs OpenProofs ReadsPreserve History
     KeyProofs.
From Coq Require Import ZifyBool ZifyNat.

Section KeyInv.
Variable H : bytes -> Z.

Notation idx_exact := (idx_exact H).
Notation exact_items := (exact_items H).
Notation KInv := (KInv H).

Lemma derive_from_app p v : forall a b cur ts,
  derive_from H p v cur ts (a ++ b) =
  derive_from H p v cur ts a ++
  derive_from H p v (cur + recs_size v a)
    (match last_opt (derive_from H p v cur ts a) with Some it => its it | None => ts end) b.
Proof.
  induction a as [|m r IH]; intros b cur ts.
  - cbn [app derive_from recs_size last_opt]. now rewrite Z.add_0_r.
  - cbn [app derive_from recs_size]. f_equal. rewrite IH. f_equal.
    replace (cur + rec_size v m + recs_size v r) with (cur + (rec_size v m + recs_size v r)) by lia. f_equal.
    destruct (derive_from H p v (cur + rec_size v m) (its (new_item H p m cur ts)) r) as [|x xs] eqn:Ed.
    + reflexivity.
    + rewrite last_opt_cons_cons. destruct (last_opt (x :: xs)) eqn:El; [reflexivity|]. apply last_opt_none in El. discriminate.
Qed.

Lemma idx_exact_new_head p c base : idx_exact p (new_head c base).
Proof. intros iv items E. cbn in E. injection E as <- <-. left. reflexivity. Qed.

Lemma append_exact p v recs items ts0 newrecs wc :
  items = derive_from H p v (hdr_size v) ts0 recs -> (items = [] -> ts0 = wc) ->
  items ++ derive_from H p v (hdr_size v + recs_size v recs)
             (match last_opt items with Some it => its it | None => wc end) newrecs
  = derive_from H p v (hdr_size v) ts0 (recs ++ newrecs).
Proof.
  intros Hex Hempty. rewrite derive_from_app. rewrite <- Hex. f_equal. f_equal.
  destruct (last_opt items) eqn:El; [reflexivity|]. apply last_opt_none in El. symmetry. now apply Hempty.
Qed.

Lemma head_exact p wc hd :
  head_inv hd -> idx_exact p hd ->
  exists ts0, head_items hd = derive_from H p (sver hd) (hdr_size (sver hd)) ts0 (srecs hd) /\
              (head_items hd = [] -> ts0 = wc).
Proof.
  intros (iv & its0 & Hsi & Hm) Hx. unfold head_items. rewrite Hsi.
  destruct (Hx iv its0 Hsi) as [->|(ts0 & Hex)].
  - assert (Hr : srecs hd = []) by (destruct Hm as [Ho _]; destruct (srecs hd); [reflexivity|discriminate]).
    exists wc. rewrite Hr. split; reflexivity.
  - destruct its0 as [|i0 ir].
    + exists wc. split; [|reflexivity]. destruct (srecs hd); [reflexivity|discriminate].
    + exists ts0. split; [exact Hex|discriminate].
Qed.

Lemma append_head_exact c hd nxt ms ts wc :
  head_inv hd -> idx_exact (cparams c) hd ->
  ts = match last_opt (head_items hd) with Some it => its it | None => wc end ->
  idx_exact (cparams c) (append_head H c hd nxt ms ts).
Proof.
  intros Hh Hx -> iv items E. cbn [append_head sidx] in E. injection E as _ <-. right. cbn [sver srecs].
  destruct (head_exact (cparams c) wc hd Hh Hx) as (ts0 & Hex & Hempty). exists ts0.
  unfold seg_log_size, log_size. apply append_exact; assumption.
Qed.

Theorem log_publish_kinv c st ms st2 n :
  KInv (cparams c) st -> opened st = Some c -> log_publish H st ms = Ok (st2, n) -> KInv (cparams c) st2.
Proof.
  intros (HI & HX & Hp) Hc E. destruct (log_publish_ok H st ms st2 n HI E) as (HI2 & _ & Ho2).
  split; [exact HI2|]. split; [|intros c2 Ec2; rewrite Ho2, Hc in Ec2; injection Ec2 as <-; reflexivity].
  destruct (log_publish_inv H st ms st2 n E) as (c1 & pre & hd & Hc1 & Hro & Es & Hsz). rewrite Hc in Hc1. injection Hc1 as <-.
  pose proof (Inv_last st c pre hd HI Hc Hro Es) as Hhd.
  rewrite (log_publish_eq H st c ms pre hd Hc Hro Es Hsz) in E. cbn zeta in E. injection E as <- _. cbn [segs].
  rewrite Es in HX. destruct (proj1 (Forall_app_last _ _ _) HX) as [HXpre HXhd].
  apply Forall_app_last. destruct (needs_rollover c hd).
  - split; [exact HX|].
    apply (append_head_exact c _ _ ms _ (next_time st hd)); [apply new_head_head|apply idx_exact_new_head|reflexivity].
  - split; [exact HXpre|]. exact (append_head_exact c hd _ ms _ (wcarry st) Hhd HXhd eq_refl).
Qed.

Lemma idx_exact_rewritten p mv iv survive : idx_exact p (rewritten H p mv iv survive).
Proof. intros iv' items E. cbn in E. injection E as <- <-. right. exists 0. reflexivity. Qed.

Theorem log_delete_kinv c st offs st2 r :
  KInv (cparams c) st -> opened st = Some c -> log_delete H st offs = Ok (st2, r) -> KInv (cparams c) st2.
Proof.
  intros HK Hc E. pose proof HK as (HI & HX & Hp). destruct r as [deleted size].
  destruct (log_delete_ok H st offs st2 deleted size c HI Hc E) as [(_ & -> & _)|(HI2 & Ho2 & _)]; [exact HK|].
  split; [exact HI2|]. split; [|intros c2 Ec2; rewrite Ho2, Hc in Ec2; injection Ec2 as <-; reflexivity].
  apply (log_delete_segs H _ c st offs st2 _ Hc E HX); [intros b; apply idx_exact_new_head|intros src mv iv f _; apply idx_exact_rewritten].
Qed.

Lemma rebuilds_kinv c st st1 :
  rebuilds H c st st1 -> KInv (cparams c) st -> opened st = Some c -> KInv (cparams c) st1 /\ opened st1 = Some c.
Proof.
  induction 1 as [st|st i st1 s items st2 Hw _ IH]; intros HK Hc; [split; assumption|].
  destruct (with_index_exact H c st i st1 s items HK Hc Hw) as [_ K1]. apply IH; [exact K1|].
  destruct HK as (HI & _). destruct (with_index_preserves H c st i st1 s items HI Hc Hw) as (_ & _ & O1 & _). exact O1.
Qed.

Lemma idx_exact_stable p : stable H p (idx_exact p).
Proof.
  split; [intros s _ iv items E; discriminate|].
  split; [intros s v _ iv items E; cbn in E; injection E as <- <-; left; reflexivity|].
  split; [intros s v iv _ iv' items E; cbn in E; injection E as <- <-; right; exists 0; reflexivity|].
  split; [|intros iv items E; discriminate].
  intros s v Hx Er iv items E. cbn [sidx] in E. destruct (Hx iv items E) as [->|(ts0 & Hex)]; [left; reflexivity|].
  left. rewrite Er in Hex. exact Hex.
Qed.

Definition KDir (p : params) (l : list seg) : Prop := DirInv l /\ Forall (idx_exact p) l.

Definition uses (p : params) (op : hop) : Prop :=
  match op with
  | HOpen c => cparams c = p
  | HMigrate p' _ => p' = p
  | HRecoverDir p' => p' = p
  | _ => True
  end.

Definition KGood (p : params) (st : lstate) : Prop :=
  Good st /\ Forall (idx_exact p) (segs st) /\ forall c, opened st = Some c -> cparams c = p.

Lemma kgood_init p : KGood p init_state.
Proof. split; [apply good_init|]. split; [constructor|intros c E; discriminate]. Qed.

Lemma kgood_kinv p st : KGood p st -> Inv st -> KInv p st.
Proof. intros (_ & HX & Hp) HI. split; [exact HI|]. split; assumption. Qed.

Lemma hstep_to_kgood p st op st' o :
  hstep_to H st op st' o -> KGood p st -> uses p op ->
  Forall (idx_exact p) (segs st') /\ forall c, opened st' = Some c -> cparams c = p.
Proof.
  intros Hs (HG & HX & Hp) Hu.
  destruct Hs as [op o _|c st' _ E|st' E|ms c st' n HI Hc E|ms c st' n HI Hc E|offs c st' r HI Hc E
                  |op c st' o _ HI Hc Hb|which all (Ho & _)|p0 v st' (Ho & _) E|p0 st' (Ho & _) E]; cbn [uses] in Hu.
  - split; assumption.
  - split; [exact (log_open_stable H p _ st c st' (idx_exact_stable p) Hu HX E)|].
    intros c2 Ec2. rewrite (proj1 (log_open_handle H st c st' E)) in Ec2. injection Ec2 as <-. exact Hu.
  - rewrite (log_close_inv st st' E). cbn [segs opened].
    split; [destruct (lvirt st); [constructor|exact HX]|intros c2 Ec2; discriminate].
  - destruct (Hp c Hc). exact (proj2 (log_publish_kinv c st ms st' n (conj HI (conj HX Hp)) Hc E)).
  - destruct (Hp c Hc). exact (proj2 (log_publish_kinv c st [] st' n (conj HI (conj HX Hp)) Hc E)).
  - destruct (Hp c Hc). exact (proj2 (log_delete_kinv c st offs st' r (conj HI (conj HX Hp)) Hc E)).
  - destruct (Hp c Hc). exact (proj2 (proj1 (rebuilds_kinv c st st' Hb (conj HI (conj HX Hp)) Hc))).
  - split; [exact (rm_index_stable H p _ _ 0 which all (idx_exact_stable p) HX)|]. intros c2 Ec2. cbn in Ec2. congruence.
  - subst p0. split; [exact (dir_migrate_stable H p _ v st st' (idx_exact_stable p) HX E)|].
    destruct (dir_migrate_segs H p v st st' E) as (l & _ & ->). intros c2 Ec2. cbn in Ec2. congruence.
  - subst p0. split; [exact (dir_recover_stable H p _ st st' (idx_exact_stable p) HX E)|].
    destruct (dir_recover_segs H p st st' E) as (l & _ & ->). intros c2 Ec2. cbn in Ec2. congruence.
Qed.

Theorem khstep_good p st op : KGood p st -> uses p op -> KGood p (fst (hstep H st op)).
Proof.
  intros HKG Hu. pose proof HKG as (HG & _). split; [exact (proj1 (hstep_good H st op HG))|].
  exact (hstep_to_kgood p st op _ _ (hstep_graph H st op HG) HKG Hu).
Qed.

Theorem khistory p ops : forall st, KGood p st -> Forall (uses p) ops -> KGood p (fst (hrun H st ops)).
Proof.
  induction ops as [|op r IH]; intros st HK Hu; [exact HK|]. apply Forall_cons_iff in Hu. destruct Hu as [Hu Hur].
  cbn [hrun]. pose proof (khstep_good p st op HK Hu) as HK1. destruct (hstep H st op) as [s1 o]. cbn [fst] in HK1.
  specialize (IH s1 HK1 Hur). destruct (hrun H s1 r) as [s2 os]. exact IH.
Qed.

End KeyInv.
