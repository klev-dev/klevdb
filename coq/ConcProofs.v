(* ConcProofs.v — C08: every interleaving of the protocol of Conc.v is linearizable.  An invariant preserved by every
   step ties the shared state to the replay of the linearization events against the sequential specification; a
   completed call returned what that specification gives at its linearization point. *)
From KV Require Import Base ListAux SearchProofs AbsFacts DeleteProofs.
From KV Require Import Conc.
From KV Require NotifyProofs.
From Coq Require Import ZifyBool ZifyNat.

Section ConcProofs.
Variable Q : Type.
Variable R : Type.
Variable qeval : Q -> list msg -> Z -> R.

Notation pc := (pc Q R).
Notation cstate := (cstate Q R).
Notation event := (event Q R).
Notation cstep := (cstep Q R qeval).
Notation spec_event := (spec_event Q R).
Notation event_ok := (event_ok Q R qeval).
Notation trace_ok := (trace_ok Q R qeval).
Notation replay := (replay Q R).

Definition in_P (p : pc) : Prop := match p with P1 _ | P2 _ | P3 _ => True | _ => False end.
Definition in_R (p : pc) : Prop := match p with R1 _ | RA _ _ _ | RB _ _ | R3 _ => True | _ => False end.
Definition in_D (p : pc) : Prop := match p with D1 _ | D2 _ _ | D3 _ _ _ | D4 _ _ _ _ | D5 _ => True | _ => False end.

Definition head_is_not (l : list cseg) (t : nat) : Prop := forall h, head_of l = Some h -> sid h <> t.

Definition tinv (s : cstate) (i : nat) (p : pc) : Prop :=
  match p with
  | RB q o => o = cabs (others_of (segs s))
  | RA q h n => In (EvRead i q (qeval q (cabs (others_of (segs s)) ++ h) n)) (trace s)
  | R3 r | RDone r => exists q, In (EvRead i q r) (trace s)
  | P3 ret | PDone ret => exists ms, In (EvPub i ms ret) (trace s)
  | D2 offs t => exists sg, find_seg (segs s) t = Some sg
  | D3 offs t ww => (exists sg, find_seg (segs s) t = Some sg) /\ (ww = false -> head_is_not (segs s) t)
  | D4 offs t ww snap =>
    exists sg more, find_seg (segs s) t = Some sg /\ crecs sg = snap ++ more /\
                    (ww = false -> head_is_not (segs s) t /\ more = [])
  | D5 res | DDone res => res = [] \/ exists offs, In (EvDel i offs res) (trace s)
  | _ => True
  end.

Definition CInv (s : cstate) : Prop :=
  segs s <> [] /\ NoDup (map sid (segs s)) /\ (forall sg, In sg (segs s) -> (sid sg < fresh s)%nat) /\
  inc (cabs (segs s)) /\ (forall m, In m (cabs (segs s)) -> moff m < nxt s) /\
  (forall j p, nth_error (thr s) j = Some p -> in_P p -> wmu s = Some j) /\
  (forall j p, nth_error (thr s) j = Some p -> in_D p -> dmu s = Some j) /\
  (forall j p, nth_error (thr s) j = Some p -> in_R p -> In j (rds s)) /\
  (forall j p, nth_error (thr s) j = Some p -> tinv s j p) /\
  replay (trace s) = (cabs (segs s), nxt s) /\ trace_ok ([], 0) (trace s).

Definition segs_ok (sg : list cseg) (nx : Z) (fr : nat) : Prop :=
  sg <> [] /\ NoDup (map sid sg) /\ (forall x, In x sg -> (sid x < fr)%nat) /\
  inc (cabs sg) /\ (forall m, In m (cabs sg) -> moff m < nx).

Definition lin (tr : list event) (st : list msg * Z) : Prop := replay tr = st /\ trace_ok ([], 0) tr.

Definition locks_ok (wm dm : option nat) (rd : list nat) (j : nat) (q : pc) : Prop :=
  (in_P q -> wm = Some j) /\ (in_D q -> dm = Some j) /\ (in_R q -> In j rd).

Lemma CInv_iff (s : cstate) : CInv s <->
  segs_ok (segs s) (nxt s) (fresh s) /\
  (forall j p, nth_error (thr s) j = Some p -> locks_ok (wmu s) (dmu s) (rds s) j p /\ tinv s j p) /\
  lin (trace s) (cabs (segs s), nxt s).
Proof.
  unfold CInv, segs_ok, lin, locks_ok. split.
  - intros (H1 & H2 & H3 & H4 & H5 & HP & HD & HR & HT & Hrep & Hok). split; [repeat split; assumption|]. split; [|split; assumption].
    intros j p E. split; [|exact (HT j p E)]. split; [exact (HP j p E)|]. split; [exact (HD j p E)|exact (HR j p E)].
  - intros ((H1 & H2 & H3 & H4 & H5) & Hth & Hrep & Hok). repeat (split; [assumption|]).
    split; [|split; [|split; [|split; [|split; assumption]]]]; intros j p E; apply (Hth j p E).
Qed.

Lemma CInv_locks (s : cstate) : CInv s -> forall j q, nth_error (thr s) j = Some q -> locks_ok (wmu s) (dmu s) (rds s) j q.
Proof. intros HI j q E. destruct (proj1 (CInv_iff s) HI) as (_ & Hth & _). exact (proj1 (Hth j q E)). Qed.

Lemma others_of_snoc (l : list cseg) x : others_of (l ++ [x]) = l.
Proof. unfold others_of. apply removelast_last. Qed.

Lemma head_of_snoc (l : list cseg) x : head_of (l ++ [x]) = Some x.
Proof. unfold head_of. apply last_opt_app. Qed.

Lemma head_split (l : list cseg) h : head_of l = Some h -> l = others_of l ++ [h].
Proof. intros Hh. destruct (last_opt_some_app l h Hh) as (pre & ->). now rewrite others_of_snoc. Qed.

Lemma head_exists (l : list cseg) : l <> [] -> exists h, head_of l = Some h.
Proof. intros Hne. destruct (@exists_last _ l Hne) as (pre & h & ->). exists h. apply head_of_snoc. Qed.

Lemma cabs_app a b : cabs (a ++ b) = cabs a ++ cabs b.
Proof. unfold cabs. now rewrite map_app, concat_app. Qed.

Lemma cabs_one h : cabs [h] = crecs h.
Proof. unfold cabs. cbn. apply app_nil_r. Qed.

Lemma cabs_head l h : head_of l = Some h -> cabs l = cabs (others_of l) ++ crecs h.
Proof. intros Hh. rewrite (head_split l h Hh) at 1. now rewrite cabs_app, cabs_one. Qed.

Lemma NoDup_app_snoc {A} (l : list A) x : NoDup l -> ~ In x l -> NoDup (l ++ [x]).
Proof.
  intros Hnd Hx. rewrite <- (rev_involutive (l ++ [x])), rev_unit. apply NoDup_rev. constructor; [now rewrite <- in_rev|now apply NoDup_rev].
Qed.

Lemma inc_assign n : forall ms, inc (assign n ms) /\ forall x, In x (assign n ms) -> n <= moff x < n + zlen ms.
Proof.
  intros ms. revert n. induction ms as [|m r IH]; intros n; [split; [exact I|intros x []]|].
  cbn [assign]. destruct (IH (n + 1)) as [Hi Hr]. rewrite zlen_cons. pose proof (zlen_nonneg r). split.
  - split; [|exact Hi]. intros x Hx. specialize (Hr x Hx). cbn [moff]. lia.
  - intros x [<-|Hx]; [cbn [moff]; lia|]. specialize (Hr x Hx). lia.
Qed.

(* left: what spec_event does to the log at an EvDel; right: what a swap of the stretch mid does.  They agree because
   offsets are unique in an increasing log: filtering by offset removes nothing outside mid *)
Lemma inc_remove_by_offset (L pre mid post : list msg) (offs : list Z) :
  L = pre ++ mid ++ post -> inc L ->
  filter (fun m => negb (existsb (fun d => moff d =? moff m) (del_part offs mid))) L = pre ++ keep_part offs mid ++ post.
Proof.
  intros -> Hinc. destruct (AbsFacts.inc_app_inv _ _ Hinc) as (_ & Hi2 & Hc1). destruct (AbsFacts.inc_app_inv _ _ Hi2) as (Himid & _ & Hc2).
  rewrite !filter_app.
  assert (Hother : forall x, (In x pre \/ In x post) -> existsb (fun d => moff d =? moff x) (del_part offs mid) = false).
  { intros x Hx. destruct (existsb _ _) eqn:E; [|reflexivity]. exfalso. apply existsb_exists in E. destruct E as (d & Hd & Ed).
    unfold del_part in Hd. apply filter_In in Hd. destruct Hd as [Hd _]. destruct Hx as [Hx|Hx].
    - pose proof (Hc1 x d Hx ltac:(apply in_or_app; now left)). lia.
    - pose proof (Hc2 d x Hd Hx). lia. }
  rewrite (filter_all_true _ pre) by (intros x Hx; rewrite (Hother x (or_introl Hx)); reflexivity).
  rewrite (filter_all_true _ post) by (intros x Hx; rewrite (Hother x (or_intror Hx)); reflexivity).
  f_equal. f_equal. unfold keep_part. apply filter_ext_in. intros x Hx.
  destruct (zmem (moff x) offs) eqn:Ez; cbn [negb].
  - apply negb_false_iff. apply existsb_exists. exists x. split; [unfold del_part; apply filter_In; split; assumption|apply Z.eqb_refl].
  - apply negb_true_iff. destruct (existsb _ _) eqn:E; [|reflexivity]. exfalso. apply existsb_exists in E. destruct E as (d & Hd & Ed).
    unfold del_part in Hd. apply filter_In in Hd. destruct Hd as [Hd Hz].
    assert (d = x) by (apply (AbsFacts.inc_offset_inj mid); try assumption; lia). subst d. congruence.
Qed.

Lemma replay_snoc tr e : replay (tr ++ [e]) = spec_event (replay tr) e.
Proof. unfold replay. now rewrite fold_left_app. Qed.

Lemma trace_ok_snoc tr e : forall st, trace_ok st (tr ++ [e]) <-> trace_ok st tr /\ event_ok (fold_left spec_event tr st) e.
Proof.
  induction tr as [|x tr IH]; intros st; cbn [app trace_ok fold_left].
  - tauto.
  - rewrite IH. tauto.
Qed.

Lemma lin_snoc tr st e : lin tr st -> event_ok st e -> lin (tr ++ [e]) (spec_event st e).
Proof. intros [<- Hok] He. split; [apply replay_snoc|]. apply trace_ok_snoc. split; [exact Hok|exact He]. Qed.

Lemma find_seg_in (l : list cseg) t sg : find_seg l t = Some sg -> In sg l /\ sid sg = t.
Proof. unfold find_seg. intros E. apply find_some in E. destruct E as [Hin E]. split; [exact Hin|]. now apply Nat.eqb_eq. Qed.

Lemma find_seg_app_l (a b : list cseg) t sg : find_seg a t = Some sg -> find_seg (a ++ b) t = Some sg.
Proof. unfold find_seg. intros E. induction a as [|x a IH]; [discriminate|]. cbn in *. destruct (Nat.eqb (sid x) t); [exact E|now apply IH]. Qed.

Lemma find_seg_unique (l : list cseg) sg : NoDup (map sid l) -> In sg l -> find_seg l (sid sg) = Some sg.
Proof.
  unfold find_seg. induction l as [|x l IH]; intros Hnd Hin; [contradiction|]. cbn [find map] in *. inversion Hnd as [|? ? Hx Hnd']; subst.
  destruct Hin as [->|Hin]; [now rewrite Nat.eqb_refl|]. destruct (Nat.eqb (sid x) (sid sg)) eqn:E.
  - apply Nat.eqb_eq in E. exfalso. apply Hx. rewrite E. now apply in_map.
  - now apply IH.
Qed.

Lemma find_seg_snoc_other (l : list cseg) x t : sid x <> t -> find_seg (l ++ [x]) t = find_seg l t.
Proof.
  intros Hn. unfold find_seg. induction l as [|y l IH]; cbn [app find].
  - destruct (Nat.eqb (sid x) t) eqn:E; [apply Nat.eqb_eq in E; congruence|reflexivity].
  - destruct (Nat.eqb (sid y) t); [reflexivity|exact IH].
Qed.

Lemma replace_seg_spec (l : list cseg) t recs de sg :
  NoDup (map sid l) -> find_seg l t = Some sg ->
  exists pre post, l = pre ++ sg :: post /\
    replace_seg l t recs de = pre ++ (if de && (match recs with [] => true | _ => false end) then [] else [mkCseg t recs]) ++ post.
Proof.
  unfold find_seg. induction l as [|x l IH]; intros Hnd E; [discriminate|]. cbn [find replace_seg map] in *.
  inversion Hnd as [|? ? Hx Hnd']; subst. destruct (Nat.eqb (sid x) t) eqn:Ex.
  - injection E as ->. exists [], l. split; [reflexivity|]. cbn [app]. destruct (de && _); reflexivity.
  - destruct (IH Hnd' E) as (pre & post & Hl & Hr). exists (x :: pre), post. split; [cbn; now rewrite Hl|]. cbn [app]. now rewrite Hr.
Qed.

Lemma target_found (l : list cseg) offs guess t : target_of l offs guess = Some t -> exists sg, find_seg l t = Some sg.
Proof.
  unfold target_of. destruct offs as [|o r]; [discriminate|]. destruct (zmin_list (o :: r) <? 0); [discriminate|].
  assert (Hin : forall sg, In sg l -> exists sg', find_seg l (sid sg) = Some sg').
  { intros sg Hin. unfold find_seg. destruct (find (fun s0 => Nat.eqb (sid s0) (sid sg)) l) eqn:E; [eauto|].
    exfalso. pose proof (find_none _ _ E sg Hin) as Hn. cbn in Hn. rewrite Nat.eqb_refl in Hn. discriminate. }
  destruct (find (holds (zmin_list (o :: r))) l) as [sg|] eqn:Ef.
  - intros E. injection E as <-. apply find_some in Ef. destruct Ef as [Hsg _]. now apply Hin.
  - destruct (nth_error l guess) as [sg|] eqn:En; [|discriminate]. intros E. injection E as <-. apply nth_error_In in En. now apply Hin.
Qed.

(* what a Delete call relies on between looking its segment up and swapping it, as a relation between the segment
   list then and now *)
Definition seg_ext (l l' : list cseg) : Prop :=
  forall t sg, find_seg l t = Some sg ->
  exists sg' more, find_seg l' t = Some sg' /\ crecs sg' = crecs sg ++ more /\ (head_is_not l t -> head_is_not l' t /\ more = []).

Lemma seg_ext_refl l : seg_ext l l.
Proof. intros t sg Hf. exists sg, []. rewrite app_nil_r. auto. Qed.

(* index.append *)
Lemma seg_ext_head l h recs :
  NoDup (map sid l) -> head_of l = Some h -> seg_ext l (with_head l (mkCseg (sid h) (crecs h ++ recs))).
Proof.
  intros Hnd Hh. pose proof (head_split l h Hh) as Hsp.
  unfold with_head. set (h2 := mkCseg (sid h) (crecs h ++ recs)). intros t sg Hf. destruct (Nat.eq_dec (sid h) t) as [Et|Et].
  - pose proof (find_seg_unique l h Hnd (last_opt_in _ _ Hh)) as Hu. rewrite Et, Hf in Hu. injection Hu as ->.
    exists h2, recs. split; [|split; [reflexivity|intros A; elim (A h Hh Et)]].
    rewrite <- Et. apply (find_seg_unique _ h2); [|apply in_or_app; right; now left].
    rewrite Hsp in Hnd. rewrite map_app in *. exact Hnd.
  - exists sg, []. rewrite app_nil_r. split; [|split; [reflexivity|]].
    + rewrite Hsp in Hf. rewrite find_seg_snoc_other in Hf by exact Et. now rewrite find_seg_snoc_other by exact Et.
    + intros _. split; [|reflexivity]. intros x Hx. rewrite head_of_snoc in Hx. injection Hx as <-. exact Et.
Qed.

(* rollover *)
Lemma seg_ext_snoc l x : (forall sg, In sg l -> sid sg <> sid x) -> seg_ext l (l ++ [x]).
Proof.
  intros Hx t sg Hf. exists sg, []. rewrite app_nil_r. split; [now apply find_seg_app_l|]. split; [reflexivity|]. intros _. split; [|reflexivity].
  intros y Hy. rewrite head_of_snoc in Hy. injection Hy as <-. destruct (find_seg_in _ _ _ Hf) as [Hin <-]. intro E. exact (Hx sg Hin (eq_sym E)).
Qed.

Lemma tinv_transfer (s s' : cstate) j q :
  (forall e, In e (trace s) -> In e (trace s')) ->
  (in_R q -> others_of (segs s') = others_of (segs s)) ->
  (in_D q -> seg_ext (segs s) (segs s')) ->
  tinv s j q -> tinv s' j q.
Proof.
  intros Ht HR HD. destruct q; cbn [tinv in_R in_D] in *; try exact (fun H => H).
  - intros (ms0 & Hin). eauto.
  - intros (ms0 & Hin). eauto.
  - rewrite (HR I). apply Ht.
  - now rewrite (HR I).
  - intros (q0 & Hin). eauto.
  - intros (q0 & Hin). eauto.
  - intros (sg & Hf). destruct (HD I _ _ Hf) as (sg' & _ & Hf' & _). eauto.
  - intros ((sg & Hf) & Hww). destruct (HD I _ _ Hf) as (sg' & more & Hf' & _ & Hh). split; [eauto|]. intros E. apply Hh, Hww, E.
  - intros (sg & more & Hf & Hc & Hww). destruct (HD I _ _ Hf) as (sg' & more' & Hf' & Hc' & Hh).
    exists sg', (more ++ more'). split; [exact Hf'|]. split; [now rewrite Hc', Hc, app_assoc|].
    intros E. destruct (Hww E) as [A ->]. destruct (Hh A) as [B ->]. split; [exact B|reflexivity].
  - intros [->|(o & Hin)]; [now left|right; eauto].
  - intros [->|(o & Hin)]; [now left|right; eauto].
Qed.

(* equations between propositions, so that between two given program counters it is proved by reflexivity *)
Definition same_sections (p p0 : pc) : Prop := in_P p = in_P p0 /\ in_D p = in_D p0 /\ in_R p = in_R p0.

Lemma locks_ok_same wm dm rd j p p0 : same_sections p p0 -> locks_ok wm dm rd j p0 -> locks_ok wm dm rd j p.
Proof. unfold locks_ok. intros (-> & -> & ->) H. exact H. Qed.

Lemma step_frame (s : cstate) i p0 p sg' nx' fr' wm rd dm tr' :
  let s' := mkC sg' nx' fr' wm rd dm (set_nth i (thr s) p) tr' in
  CInv s -> nth_error (thr s) i = Some p0 -> segs_ok sg' nx' fr' -> lin tr' (cabs sg', nx') ->
  locks_ok wm dm rd i p -> tinv s' i p ->
  (forall j q, j <> i -> nth_error (thr s) j = Some q -> locks_ok wm dm rd j q /\ (tinv s j q -> tinv s' j q)) ->
  CInv s'.
Proof.
  intros s' HI Hi Hsegs Hlin Hli Hti Hoth. destruct (proj1 (CInv_iff s) HI) as (_ & Hth & _).
  apply CInv_iff. split; [exact Hsegs|]. split; [|exact Hlin].
  apply (NotifyProofs.set_nth_forall _ _ i p p0 Hi); [split; assumption|]. intros j q Hn E.
  destruct (Hoth j q Hn E) as [Hl Ht]. split; [exact Hl|]. exact (Ht (proj2 (Hth j q E))).
Qed.

Lemma step_keep (s : cstate) i p0 p sg' nx' fr' tr' :
  let s' := mkC sg' nx' fr' (wmu s) (rds s) (dmu s) (set_nth i (thr s) p) tr' in
  CInv s -> nth_error (thr s) i = Some p0 -> same_sections p p0 -> segs_ok sg' nx' fr' -> lin tr' (cabs sg', nx') ->
  tinv s' i p -> (forall j q, j <> i -> nth_error (thr s) j = Some q -> tinv s j q -> tinv s' j q) ->
  CInv s'.
Proof.
  intros s' HI Hi Hp Hsegs Hlin Hti Hoth.
  apply (step_frame s i p0 p sg' nx' fr' _ _ _ tr' HI Hi Hsegs Hlin); [|exact Hti|].
  - exact (locks_ok_same _ _ _ i p p0 Hp (CInv_locks s HI i p0 Hi)).
  - intros j q Hn E. split; [exact (CInv_locks s HI j q E)|exact (Hoth j q Hn E)].
Qed.

Lemma step_local (s : cstate) i p0 p wm rd dm :
  CInv s -> nth_error (thr s) i = Some p0 -> locks_ok wm dm rd i p -> tinv s i p ->
  (forall j, j <> i -> (wmu s = Some j -> wm = Some j) /\ (dmu s = Some j -> dm = Some j) /\ (In j (rds s) -> In j rd)) ->
  CInv (mkC (segs s) (nxt s) (fresh s) wm rd dm (set_nth i (thr s) p) (trace s)).
Proof.
  intros HI Hi Hli Hti Hoth. pose proof (proj1 (CInv_iff s) HI) as (Hsegs & _ & Hlin).
  apply (step_frame s i p0 p _ _ _ wm rd dm _ HI Hi Hsegs Hlin); [exact Hli|exact Hti|].
  intros j q Hn E. destruct (CInv_locks s HI j q E) as (A & B & C). destruct (Hoth j Hn) as (A' & B' & C').
  split; [|exact (fun H => H)]. split; [|split]; auto.
Qed.

Lemma step_upd (s : cstate) i p0 p :
  CInv s -> nth_error (thr s) i = Some p0 -> same_sections p p0 -> tinv s i p -> CInv (upd s i p).
Proof.
  intros HI Hi Hp Hti. pose proof (proj1 (CInv_iff s) HI) as (Hsegs & _ & Hlin).
  apply (step_keep s i p0 p _ _ _ _ HI Hi Hp Hsegs Hlin); [exact Hti|]. intros j q _ _ H. exact H.
Qed.

Lemma step_event (s : cstate) i p0 p sg' nx' fr' e :
  let s' := mkC sg' nx' fr' (wmu s) (rds s) (dmu s) (set_nth i (thr s) p) (trace s ++ [e]) in
  CInv s -> nth_error (thr s) i = Some p0 -> same_sections p p0 -> segs_ok sg' nx' fr' ->
  event_ok (cabs (segs s), nxt s) e -> spec_event (cabs (segs s), nxt s) e = (cabs sg', nx') ->
  tinv s' i p ->
  (forall j q, j <> i -> nth_error (thr s) j = Some q ->
     (in_R q -> others_of sg' = others_of (segs s)) /\ (in_D q -> seg_ext (segs s) sg')) ->
  CInv s'.
Proof.
  intros s' HI Hi Hp Hsegs He Hsp Hti Hoth. pose proof (proj1 (CInv_iff s) HI) as (_ & _ & Hlin).
  apply (step_keep s i p0 p sg' nx' fr' _ HI Hi Hp Hsegs); [rewrite <- Hsp; exact (lin_snoc _ _ e Hlin He)|exact Hti|].
  intros j q Hn E. destruct (Hoth j q Hn E) as [HR HD]. apply tinv_transfer; [|exact HR|exact HD].
  intros x Hx. apply in_or_app. now left.
Qed.

(* HeadFirst and RB: the look at the writing segment is the linearization point of a read *)
Lemma step_read (s : cstate) i p0 p q :
  let s' := mkC (segs s) (nxt s) (fresh s) (wmu s) (rds s) (dmu s) (set_nth i (thr s) p)
                (trace s ++ [EvRead i q (qeval q (cabs (segs s)) (nxt s))]) in
  CInv s -> nth_error (thr s) i = Some p0 -> same_sections p p0 -> tinv s' i p -> CInv s'.
Proof.
  intros s' HI Hi Hp Hti. pose proof (proj1 (CInv_iff s) HI) as (Hsegs & _).
  apply (step_event s i p0 p _ _ _ _ HI Hi Hp Hsegs); [reflexivity|reflexivity|exact Hti|].
  intros j r _ _. split; [reflexivity|intros _; apply seg_ext_refl].
Qed.

(* readersMu.Lock: rollover and the swaps of Delete are enabled only while nobody holds the read lock *)
Lemma no_reader (s : cstate) j q : CInv s -> rds s = [] -> nth_error (thr s) j = Some q -> ~ in_R q.
Proof. intros HI Hrd E Hq. destruct (CInv_locks s HI j q E) as (_ & _ & C). specialize (C Hq). rewrite Hrd in C. exact C. Qed.

(* index.append: the batch becomes visible *)
Lemma step_publish (s : cstate) i ms h :
  CInv s -> nth_error (thr s) i = Some (P2 ms) -> head_of (segs s) = Some h ->
  CInv (mkC (with_head (segs s) (mkCseg (sid h) (crecs h ++ assign (nxt s) ms))) (nxt s + zlen ms) (fresh s) (wmu s) (rds s) (dmu s)
            (set_nth i (thr s) (P3 (nxt s + zlen ms))) (trace s ++ [EvPub i ms (nxt s + zlen ms)])).
Proof.
  intros HI Hi Hh. pose proof (proj1 (CInv_iff s) HI) as ((_ & Hnd & Hfr & Hinc & Hlt) & _).
  pose proof (seg_ext_head (segs s) h (assign (nxt s) ms) Hnd Hh) as Hext. pose proof (head_split (segs s) h Hh) as Hsp.
  unfold with_head in *. set (oth := others_of (segs s)) in *. set (h2 := mkCseg (sid h) (crecs h ++ assign (nxt s) ms)) in *.
  assert (Hcabs : cabs (oth ++ [h2]) = cabs (segs s) ++ assign (nxt s) ms).
  { rewrite Hsp. rewrite !cabs_app, !cabs_one. cbn [crecs h2]. now rewrite app_assoc. }
  assert (Hsids : map sid (oth ++ [h2]) = map sid (segs s)) by (rewrite Hsp; rewrite !map_app; reflexivity).
  destruct (inc_assign (nxt s) ms) as [Hia Hra]. pose proof (zlen_nonneg ms) as Hz.
  apply (step_event s i (P2 ms) (P3 _) (oth ++ [h2]) _ _ (EvPub i ms (nxt s + zlen ms)) HI Hi);
    [repeat split| |reflexivity|cbn [spec_event]; now rewrite Hcabs| |].
  - split; [destruct oth; discriminate|]. split; [rewrite Hsids; exact Hnd|]. rewrite Hcabs. split; [|split].
    + intros x Hx. apply (in_map sid) in Hx. rewrite Hsids in Hx. apply in_map_iff in Hx. destruct Hx as (y & <- & Hy). now apply Hfr.
    + apply inc_app; [exact Hinc|exact Hia|]. intros x y Hx Hy. specialize (Hlt x Hx). specialize (Hra y Hy). lia.
    + intros m Hm. apply in_app_or in Hm. destruct Hm as [Hm|Hm]; [specialize (Hlt m Hm); lia|specialize (Hra m Hm); lia].
  - cbn [tinv trace]. exists ms. apply in_or_app. right. now left.
  - intros j q _ _. split; intros _; [apply others_of_snoc|exact Hext].
Qed.

(* rollover: the old head becomes a reader, a fresh empty segment takes over *)
Lemma step_roll (s : cstate) i ms :
  CInv s -> nth_error (thr s) i = Some (P1 ms) -> rds s = [] ->
  CInv (mkC (segs s ++ [mkCseg (fresh s) []]) (nxt s) (S (fresh s)) (wmu s) [] (dmu s) (set_nth i (thr s) (P2 ms)) (trace s)).
Proof.
  intros HI Hi Hrd. rewrite <- Hrd. pose proof (proj1 (CInv_iff s) HI) as ((_ & Hnd & Hfr & Hinc & Hlt) & _ & Hlin).
  assert (Hcabs : cabs (segs s ++ [mkCseg (fresh s) []]) = cabs (segs s)) by (rewrite cabs_app, cabs_one; apply app_nil_r).
  assert (Hnew : forall sg, In sg (segs s) -> sid sg <> fresh s) by (intros sg Hsg; specialize (Hfr sg Hsg); lia).
  apply (step_keep s i (P1 ms) (P2 ms) _ _ _ _ HI Hi); [repeat split| |rewrite Hcabs; exact Hlin|exact I|].
  - split; [destruct (segs s); discriminate|]. rewrite Hcabs. split; [|split; [|split; assumption]].
    + rewrite map_app. apply NoDup_app_snoc; [exact Hnd|]. intro Hin. apply in_map_iff in Hin. destruct Hin as (x & Ex & Hx). exact (Hnew x Hx Ex).
    + intros sg Hsg. apply in_app_or in Hsg. destruct Hsg as [Hsg|[<-|[]]]; [specialize (Hfr sg Hsg); lia|cbn; lia].
  - intros j q _ E. apply tinv_transfer; cbn [segs trace].
    + auto.
    + intros Hq. elim (no_reader s j q HI Hrd E Hq).
    + intros _. apply seg_ext_snoc. exact Hnew.
Qed.

(* the swap of Delete, under deleteMu and readersMu.Lock: the records snap of one segment, which lie between pre and
   post in the log, are replaced by those of them the call keeps *)
Lemma step_delete (s : cstate) i offs t ww snap pre post sg' fr' :
  CInv s -> nth_error (thr s) i = Some (D4 offs t ww snap) -> rds s = [] ->
  cabs (segs s) = pre ++ snap ++ post -> cabs sg' = pre ++ keep_part offs snap ++ post ->
  sg' <> [] -> NoDup (map sid sg') -> (forall x, In x sg' -> (sid x < fr')%nat) ->
  CInv (mkC sg' (nxt s) fr' (wmu s) [] (dmu s) (set_nth i (thr s) (D5 (del_part offs snap)))
            (trace s ++ [EvDel i offs (del_part offs snap)])).
Proof.
  intros HI Hi Hrd Hold Hnew H1 H2 H3. rewrite <- Hrd. pose proof (proj1 (CInv_iff s) HI) as ((_ & _ & _ & Hinc & Hlt) & _).
  assert (Hcabs : cabs sg' = filter (fun m => negb (existsb (fun d => moff d =? moff m) (del_part offs snap))) (cabs (segs s))).
  { rewrite Hnew. symmetry. exact (inc_remove_by_offset _ pre snap post offs Hold Hinc). }
  apply (step_event s i _ (D5 _) sg' _ fr' (EvDel i offs (del_part offs snap)) HI Hi); [repeat split| | |cbn [spec_event]; now rewrite Hcabs| |].
  - split; [exact H1|]. split; [exact H2|]. split; [exact H3|]. rewrite Hcabs. split; [now apply inc_filter|].
    intros m Hm. apply filter_In in Hm. apply Hlt, Hm.
  - intros d Hd. unfold del_part in Hd. apply filter_In in Hd. destruct Hd as [Hd Hz]. split; [|now apply ListAux.zmem_in].
    rewrite Hold. apply in_or_app. right. apply in_or_app. now left.
  - cbn [tinv trace]. right. exists offs. apply in_or_app. right. now left.
  - (* nobody else reads (readersMu.Lock), nobody else deletes (deleteMu) *)
    intros j q Hn E. split; intros Hq; [elim (no_reader s j q HI Hrd E Hq)|].
    destruct (CInv_locks s HI j q E) as (_ & A & _). destruct (CInv_locks s HI i _ Hi) as (_ & B & _).
    specialize (A Hq). specialize (B I). congruence.
Qed.

(* a reader segment (segment.Rewrite and the swap in log.Delete); emptied, it disappears from the list *)
Lemma step_swap (s : cstate) i offs t ww snap sg :
  CInv s -> nth_error (thr s) i = Some (D4 offs t ww snap) -> rds s = [] ->
  find_seg (segs s) t = Some sg -> crecs sg = snap -> head_is_not (segs s) t ->
  CInv (mkC (replace_seg (segs s) t (keep_part offs snap) true) (nxt s) (fresh s) (wmu s) [] (dmu s)
            (set_nth i (thr s) (D5 (del_part offs snap))) (trace s ++ [EvDel i offs (del_part offs snap)])).
Proof.
  intros HI Hi Hrd Hf Hsnap Hnh. pose proof (proj1 (CInv_iff s) HI) as ((_ & Hnd & Hfr & _) & _).
  destruct (replace_seg_spec (segs s) t (keep_part offs snap) true sg Hnd Hf) as (pre & post & Hsp & ->). cbn [andb].
  destruct (find_seg_in _ _ _ Hf) as [_ Hsid].
  set (X := if match keep_part offs snap with [] => true | _ => false end then [] else [mkCseg t (keep_part offs snap)]).
  assert (HX : cabs X = keep_part offs snap) by (unfold X; destruct (keep_part offs snap); [reflexivity|apply cabs_one]).
  assert (Hsub : forall y, In y (map sid (pre ++ X ++ post)) -> In y (map sid (segs s))).
  { intros y. rewrite Hsp, !map_app, !in_app_iff. cbn [map In]. unfold X. destruct (match _ with [] => true | _ => false end); cbn [map In]; rewrite Hsid; tauto. }
  apply (step_delete s i offs t ww snap (cabs pre) (cabs post) _ _ HI Hi Hrd).
  - rewrite Hsp. change (sg :: post) with ([sg] ++ post). now rewrite !cabs_app, cabs_one, Hsnap.
  - now rewrite !cabs_app, HX.
  - (* the segment is not the last, so the list stays non-empty *)
    destruct post as [|p1 pr]; [|destruct pre; destruct X; discriminate].
    exfalso. apply (Hnh sg); [|exact Hsid]. rewrite Hsp. apply head_of_snoc.
  - rewrite Hsp, map_app in Hnd. cbn [map] in Hnd. rewrite !map_app. unfold X. destruct (match _ with [] => true | _ => false end); cbn [map app].
    + now apply NoDup_remove_1 in Hnd.
    + rewrite Hsid in Hnd. exact Hnd.
  - intros x Hx. apply (in_map sid), Hsub, in_map_iff in Hx. destruct Hx as (y & <- & Hy). now apply Hfr.
Qed.

(* the writing segment (writer.Delete) *)
Lemma step_swap_head (s : cstate) i offs t ww snap hd :
  CInv s -> nth_error (thr s) i = Some (D4 offs t ww snap) -> rds s = [] ->
  head_of (segs s) = Some hd -> sid hd = t -> crecs hd = snap ->
  CInv (mkC (head_swap (segs s) t (keep_part offs snap) (tail_deleted offs snap) (fresh s)) (nxt s) (S (fresh s)) (wmu s) [] (dmu s)
            (set_nth i (thr s) (D5 (del_part offs snap))) (trace s ++ [EvDel i offs (del_part offs snap)])).
Proof.
  intros HI Hi Hrd Hhd Hsid Hsnap. pose proof (proj1 (CInv_iff s) HI) as ((_ & Hnd & Hfr & _) & _).
  pose proof (head_split (segs s) hd Hhd) as Hsp.
  unfold head_swap. set (oth := others_of (segs s)) in *. set (keep := keep_part offs snap).
  set (X := match keep with [] => [mkCseg (fresh s) []] | _ => if tail_deleted offs snap then [mkCseg t keep; mkCseg (fresh s) []] else [mkCseg t keep] end).
  assert (HX : cabs X = keep).
  { unfold X. destruct keep eqn:Ek; [reflexivity|]. rewrite <- Ek. destruct (tail_deleted offs snap); unfold cabs; cbn; now rewrite ?app_nil_r. }
  assert (HXs : map sid X = [fresh s] \/ map sid X = [t; fresh s] \/ map sid X = [t]).
  { unfold X. destruct keep; [now left|]. destruct (tail_deleted offs snap); [right; now left|right; now right]. }
  assert (Hsids : map sid (segs s) = map sid oth ++ [t]) by (rewrite Hsp, map_app, <- Hsid; reflexivity).
  assert (Hold : forall y, In y (map sid oth ++ [t]) -> (y < fresh s)%nat).
  { intros y Hy. rewrite <- Hsids in Hy. apply in_map_iff in Hy. destruct Hy as (x & <- & Hx). now apply Hfr. }
  assert (Hfresh : ~ In (fresh s) (map sid oth ++ [t])) by (intro Hc; specialize (Hold _ Hc); lia).
  rewrite Hsids in Hnd.
  apply (step_delete s i offs t ww snap (cabs oth) [] _ _ HI Hi Hrd).
  - now rewrite Hsp, cabs_app, cabs_one, Hsnap, app_nil_r.
  - now rewrite cabs_app, HX, app_nil_r.
  - unfold X. destruct oth; destruct keep; try destruct (tail_deleted offs snap); discriminate.
  - rewrite map_app. destruct HXs as [-> | [-> | ->]].
    + apply NoDup_app_snoc; [apply NoDup_remove_1 in Hnd; now rewrite app_nil_r in Hnd|]. intro Hc. apply Hfresh, in_or_app. now left.
    + change [t; fresh s] with ([t] ++ [fresh s]). rewrite app_assoc. now apply NoDup_app_snoc.
    + exact Hnd.
  - intros x Hx. apply (in_map sid) in Hx. rewrite map_app in Hx. apply in_app_or in Hx. destruct Hx as [Hx|Hx].
    + assert (Hlt : (sid x < fresh s)%nat) by (apply Hold, in_or_app; now left). lia.
    + assert (Ht : (t < fresh s)%nat) by (apply Hold, in_or_app; right; now left).
      destruct HXs as [E|[E|E]]; rewrite E in Hx; cbn [In] in Hx; lia.
Qed.

Theorem cstep_inv (s s' : cstate) a : CInv s -> cstep s a = Some s' -> CInv s'.
Proof.
  intros HI E. pose proof (proj1 (CInv_iff s) HI) as ((Hne & Hnd & _) & Hth & _).
  destruct (head_exists (segs s) Hne) as (hd & Hhd).
  destruct a as [i|i|i|i|i guess]; cbn [Conc.cstep] in E;
    (destruct (nth_error (thr s) i) as [p0|] eqn:Hi; [|discriminate]);
    destruct (Hth i p0 Hi) as [(HPi & HDi & _) Hti]; destruct p0; try discriminate.
  - (* P0 *) destruct (wmu s) eqn:Ew; [discriminate|]. injection E as <-.
    apply (step_local s i _ (P1 ms) (Some i) (rds s) (dmu s) HI Hi); [repeat split; easy|exact I|].
    intros j _. split; [congruence|auto].
  - (* P1, no rollover *) injection E as <-. apply (step_upd s i _ (P2 ms) HI Hi); [repeat split|exact I].
  - (* P2: index.append, the linearization point of Publish *) rewrite Hhd in E. injection E as <-. exact (step_publish s i ms hd HI Hi Hhd).
  - (* P3 *) injection E as <-. pose proof (HPi I) as Ew.
    apply (step_local s i _ (PDone ret) None (rds s) (dmu s) HI Hi); [repeat split; easy|exact Hti|].
    intros j Hn. split; [congruence|auto].
  - (* R0 *) injection E as <-.
    apply (step_local s i _ (R1 q) (wmu s) (i :: rds s) (dmu s) HI Hi); [|exact I|].
    + split; [easy|]. split; [easy|]. intros _. now left.
    + intros j _. split; [|split]; auto using in_cons.
  - (* RA *) injection E as <-.
    apply (step_upd s i _ (R3 _) HI Hi); [repeat split|]. exists q. exact Hti.
  - (* RB: the linearization point *) rewrite Hhd in E. injection E as <-.
    apply (step_read s i _ (R3 _) q HI Hi); [repeat split|].
    cbn [tinv trace]. exists q. apply in_or_app. right. left. f_equal. f_equal.
    cbn [tinv] in Hti. rewrite Hti. now apply cabs_head.
  - (* R3 *) injection E as <-.
    apply (step_local s i _ (RDone r) (wmu s) _ (dmu s) HI Hi); [repeat split; easy|exact Hti|].
    intros j Hn. split; [|split]; auto. intros Hj. apply filter_In. split; [exact Hj|]. apply negb_true_iff. now apply Nat.eqb_neq.
  - (* D0 *) destruct (dmu s) eqn:Ed; [discriminate|]. injection E as <-.
    apply (step_local s i _ (D1 offs) (wmu s) (rds s) (Some i) HI Hi); [repeat split; easy|exact I|].
    intros j _. split; [auto|split; [congruence|auto]].
  - (* D2: under writerMu, is the target the writing segment?  If not (ww = false) it never is again: head_is_not *)
    destruct (holder_free (wmu s)); [|discriminate]. rewrite Hhd in E. injection E as <-.
    apply (step_upd s i _ (D3 offs t _) HI Hi); [repeat split|].
    split; [exact Hti|]. intros Ew h' Hh'. rewrite Hhd in Hh'. injection Hh' as <-. now apply Nat.eqb_neq.
  - (* D3: Rewrite reads the segment *) cbn [tinv] in Hti. destruct Hti as ((sg & Hf) & Hww). rewrite Hf in E.
    destruct (del_part offs (crecs sg)) eqn:Edel; injection E as <-.
    + apply (step_upd s i _ (D5 []) HI Hi); [repeat split|]. now left.
    + apply (step_upd s i _ (D4 offs t ww (crecs sg)) HI Hi); [repeat split|].
      exists sg, []. split; [exact Hf|]. split; [now rewrite app_nil_r|]. intros Ew. split; [now apply Hww|reflexivity].
  - (* D4: writerMu and readersMu.Lock taken again; what D3 saw is still a prefix of the segment *)
    destruct (holder_free (wmu s)); [|discriminate]. rewrite Hhd in E.
    cbn [tinv] in Hti. destruct Hti as (sg & more & Hf & Hc & Hww).
    destruct (Nat.eqb (sid hd) t) eqn:Et.
    + (* still the writing segment: equal lengths mean nothing was appended since the snapshot *)
      apply Nat.eqb_eq in Et. destruct (rds s) eqn:Erd; [|discriminate].
      pose proof (find_seg_unique (segs s) hd Hnd (last_opt_in _ _ Hhd)) as Hu. rewrite Et, Hf in Hu. injection Hu as ->.
      destruct (Nat.eqb (length snap) (length (crecs hd))) eqn:El; injection E as <-.
      * apply Nat.eqb_eq in El. rewrite Hc, app_length in El. destruct more; [|cbn in El; lia]. rewrite app_nil_r in Hc.
        exact (step_swap_head s i offs t ww snap hd HI Hi Erd Hhd Et Hc).
      * (* errSegmentChanged: the call reports nothing *) apply (step_upd s i _ (D5 []) HI Hi); [repeat split|]. now left.
    + destruct ww.
      * (* it was the writing segment and was rolled over: retry *) injection E as <-.
        apply (step_upd s i _ (D1 offs) HI Hi); [repeat split|exact I].
      * (* a reader segment: it has not grown (more = []) *)
        destruct (rds s) eqn:Erd; [|discriminate]. injection E as <-. destruct (Hww eq_refl) as [Hnh ->]. rewrite app_nil_r in Hc.
        exact (step_swap s i offs t false snap sg HI Hi Erd Hf Hc Hnh).
  - (* D5 *) injection E as <-. pose proof (HDi I) as Ed.
    apply (step_local s i _ (DDone res) (wmu s) (rds s) None HI Hi); [repeat split; easy|exact Hti|].
    intros j Hn. split; [auto|split; [congruence|auto]].
  - (* Roll *) destruct (rds s) eqn:Erd; [|discriminate]. injection E as <-. exact (step_roll s i ms HI Hi Erd).
  - (* HeadFirst: the linearization point *) rewrite Hhd in E. injection E as <-.
    apply (step_read s i _ (RA q (crecs hd) (nxt s)) q HI Hi); [repeat split|].
    cbn [tinv trace segs]. apply in_or_app. right. left. f_equal. f_equal. now apply cabs_head.
  - (* OthersFirst: reader segments do not change while the read lock is held, so RB may keep what it saw *) injection E as <-. apply (step_upd s i _ (RB q _) HI Hi); [repeat split|reflexivity].
  - (* Find: findDeleteReader names a segment that exists *) destruct (target_of (segs s) offs guess) as [t|] eqn:Etg; injection E as <-.
    + apply (step_upd s i _ (D2 offs t) HI Hi); [repeat split|]. eapply target_found; eauto.
    + apply (step_upd s i _ (D5 []) HI Hi); [repeat split|]. now left.
Qed.

Definition initial (p : pc) : Prop := match p with Idle | P0 _ | R0 _ | D0 _ => True | _ => False end.

Lemma initial_ok wm dm rd (s : cstate) j p : initial p -> locks_ok wm dm rd j p /\ tinv s j p.
Proof. destruct p; try contradiction; intros _; (split; [repeat split; intros []|exact I]). Qed.

Lemma cinit_inv ts : Forall initial ts -> CInv (cinit Q R ts).
Proof.
  intros Hall. apply CInv_iff. unfold cinit. cbn [segs nxt fresh wmu rds dmu thr trace]. split; [|split; [|split; [reflexivity|exact I]]].
  - split; [discriminate|]. split; [cbn; constructor; [intros []|constructor]|]. split; [intros sg [<-|[]]; cbn; lia|].
    split; [exact I|intros m []].
  - intros j p E. apply initial_ok. rewrite Forall_forall in Hall. apply Hall. eapply nth_error_In; eauto.
Qed.

Theorem creach_inv ts s : Forall initial ts -> creach Q R qeval (cinit Q R ts) s -> CInv s.
Proof. intros Hall Hr. induction Hr as [|s1 a s2 Hr IH Hs]; [now apply cinit_inv|exact (cstep_inv s1 s2 a IH Hs)]. Qed.

Lemma trace_ok_in tr : forall st e, trace_ok st tr -> In e tr ->
  exists tr1 tr2, tr = tr1 ++ e :: tr2 /\ event_ok (fold_left spec_event tr1 st) e.
Proof.
  induction tr as [|x tr IH]; intros st e Hok Hin; [contradiction|]. destruct Hok as [Hx Hok]. destruct Hin as [->|Hin].
  - exists [], tr. split; [reflexivity|exact Hx].
  - destruct (IH _ e Hok Hin) as (t1 & t2 & -> & He). exists (x :: t1), t2. split; [reflexivity|exact He].
Qed.

Lemma creach_thread ts s i p :
  Forall initial ts -> creach Q R qeval (cinit Q R ts) s -> nth_error (thr s) i = Some p ->
  tinv s i p /\ forall e, In e (trace s) -> exists tr1 tr2, trace s = tr1 ++ e :: tr2 /\ event_ok (replay tr1) e.
Proof.
  intros Hall Hr Hi. destruct (proj1 (CInv_iff s) (creach_inv ts s Hall Hr)) as (_ & Hth & _ & Hok).
  split; [exact (proj2 (Hth i p Hi))|]. intros e. apply trace_ok_in. exact Hok.
Qed.

(* C08: in every reachable state the linearization events - each appended by a step of the call itself, so between
   its first and its last step - replayed against the sequential specification are all allowed by it, and the replay
   ends in the shared state *)
Theorem linearizable ts s :
  Forall initial ts -> creach Q R qeval (cinit Q R ts) s ->
  trace_ok ([], 0) (trace s) /\ replay (trace s) = (cabs (segs s), nxt s).
Proof. intros Hall Hr. destruct (proj1 (CInv_iff s) (creach_inv ts s Hall Hr)) as (_ & _ & Hrep & Hok). split; assumption. Qed.

(* a completed read returned what the sequential specification gives in the state at its linearization point *)
Theorem read_returns_spec ts s i r :
  Forall initial ts -> creach Q R qeval (cinit Q R ts) s -> nth_error (thr s) i = Some (RDone r) ->
  exists q tr1 tr2, trace s = tr1 ++ EvRead i q r :: tr2 /\ r = qeval q (fst (replay tr1)) (snd (replay tr1)).
Proof.
  intros Hall Hr Hi. destruct (creach_thread ts s i _ Hall Hr Hi) as [(q & Hin) Hev]. destruct (Hev _ Hin) as (t1 & t2 & Ht & He).
  exists q, t1, t2. split; [exact Ht|]. destruct (replay t1) as [L n]. exact He.
Qed.

(* a completed Publish returned NextOffset + n of the state at its linearization point: publishers receive disjoint
   consecutive offset ranges *)
Theorem publish_returns_spec ts s i ret :
  Forall initial ts -> creach Q R qeval (cinit Q R ts) s -> nth_error (thr s) i = Some (PDone ret) ->
  exists ms tr1 tr2, trace s = tr1 ++ EvPub i ms ret :: tr2 /\ ret = snd (replay tr1) + zlen ms.
Proof.
  intros Hall Hr Hi. destruct (creach_thread ts s i _ Hall Hr Hi) as [(ms & Hin) Hev]. destruct (Hev _ Hin) as (t1 & t2 & Ht & He).
  exists ms, t1, t2. split; [exact Ht|]. destruct (replay t1) as [L n]. exact He.
Qed.

(* a completed Delete reported nothing, or exactly messages that were live and requested at its linearization
   point, where exactly those were removed *)
Theorem delete_returns_spec ts s i res :
  Forall initial ts -> creach Q R qeval (cinit Q R ts) s -> nth_error (thr s) i = Some (DDone res) ->
  res = [] \/ exists offs tr1 tr2, trace s = tr1 ++ EvDel i offs res :: tr2 /\
                forall d, In d res -> In d (fst (replay tr1)) /\ In (moff d) offs.
Proof.
  intros Hall Hr Hi. destruct (creach_thread ts s i _ Hall Hr Hi) as [[->|(offs & Hin)] Hev]; [now left|right]. destruct (Hev _ Hin) as (t1 & t2 & Ht & He).
  exists offs, t1, t2. split; [exact Ht|]. destruct (replay t1) as [L n]. exact He.
Qed.

(* one publisher inside writerMu, one deleter inside deleteMu, and every call between RLock and RUnlock is registered
   as a reader *)
Theorem mutual_exclusion ts s i j p q :
  Forall initial ts -> creach Q R qeval (cinit Q R ts) s ->
  nth_error (thr s) i = Some p -> nth_error (thr s) j = Some q ->
  (in_P p -> in_P q -> i = j) /\ (in_D p -> in_D q -> i = j) /\ (in_R p -> In i (rds s)).
Proof.
  intros Hall Hr Hi Hj. pose proof (CInv_locks s (creach_inv ts s Hall Hr)) as Hl.
  destruct (Hl i p Hi) as (Pi & Di & Ri). destruct (Hl j q Hj) as (Pj & Dj & _).
  split; [|split; [|exact Ri]]; intros A B.
  - specialize (Pi A). specialize (Pj B). congruence.
  - specialize (Di A). specialize (Dj B). congruence.
Qed.

Theorem offsets_unique ts s :
  Forall initial ts -> creach Q R qeval (cinit Q R ts) s -> inc (cabs (segs s)) /\ forall m, In m (cabs (segs s)) -> moff m < nxt s.
Proof. intros Hall Hr. destruct (proj1 (CInv_iff s) (creach_inv ts s Hall Hr)) as ((_ & _ & _ & Hinc & Hlt) & _). split; assumption. Qed.

End ConcProofs.
