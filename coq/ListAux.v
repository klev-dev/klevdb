(* ListAux.v — general facts about lists; no notion of the model occurs here. *)
From KV Require Import Base.
From Coq Require Import ZifyBool ZifyNat.

Lemma last_cons_self {A} (l : list A) : forall a d, last (a :: l) d = last l a.
Proof.
  induction l as [|b l IH]; intros a d; [reflexivity|].
  change (last (a :: b :: l) d) with (last (b :: l) d). now rewrite (IH b d), (IH b a).
Qed.

Lemma last_in {A} (l : list A) (d : A) : l <> [] -> In (last l d) l.
Proof.
  induction l as [|x l IH]; [congruence|]. intros _. destruct l as [|y l]; [left; reflexivity|].
  right. change (last (x :: y :: l) d) with (last (y :: l) d). apply IH. discriminate.
Qed.

Lemma last_map' {A B} (f : A -> B) (r : list A) : forall a, last (map f r) (f a) = f (last r a).
Proof.
  induction r as [|b r IH]; intros a; [reflexivity|]. cbn [map]. rewrite !last_cons_self. apply IH.
Qed.

Lemma last_app_one {A} (l : list A) (x d : A) : last (l ++ [x]) d = x.
Proof. apply last_last. Qed.

Lemma last_opt_last {A} (l : list A) (d : A) : l <> [] -> last_opt l = Some (last l d).
Proof. destruct l as [|a l]; [congruence|]. intros _. cbn [last_opt]. now rewrite last_cons_self. Qed.

Lemma last_opt_none {A} (l : list A) : last_opt l = None -> l = [].
Proof. destruct l; [reflexivity|discriminate]. Qed.

Lemma last_opt_in {A} (l : list A) x : last_opt l = Some x -> In x l.
Proof.
  intros E. assert (Hne : l <> []) by (intros ->; discriminate).
  rewrite (last_opt_last l x Hne) in E. injection E as <-. now apply last_in.
Qed.

Lemma last_opt_map {A B} (f : A -> B) (l : list A) : last_opt (map f l) = option_map f (last_opt l).
Proof. destruct l as [|a l]; [reflexivity|]. cbn [map last_opt option_map]. f_equal. apply last_map'. Qed.

Lemma last_opt_cons_cons {A} (a b : A) l : last_opt (a :: b :: l) = last_opt (b :: l).
Proof. cbn [last_opt]. f_equal. apply last_cons_self. Qed.

Lemma last_opt_app {A} (l : list A) (x : A) : last_opt (l ++ [x]) = Some x.
Proof.
  destruct l as [|a l]; [reflexivity|]. cbn [app last_opt]. f_equal. apply last_last.
Qed.

Lemma exists_last_or_nil {A} (l : list A) : l = [] \/ exists l' x, l = l' ++ [x].
Proof.
  destruct l as [|a l]; [left; reflexivity|]. right.
  destruct (@exists_last A (a :: l)) as (l' & x & E); [discriminate|]. eauto.
Qed.

Lemma last_opt_some_app {A} (l : list A) x : last_opt l = Some x -> exists pre, l = pre ++ [x].
Proof.
  intros E. destruct (exists_last_or_nil l) as [->|(pre & y & ->)]; [discriminate|].
  rewrite last_opt_app in E. injection E as ->. now exists pre.
Qed.

Lemma last_opt_app2 {A} (l r : list A) : r <> [] -> last_opt (l ++ r) = last_opt r.
Proof.
  intros Hr. destruct (@exists_last A r Hr) as (r' & x & ->).
  rewrite app_assoc, !last_opt_app. reflexivity.
Qed.

Lemma last_opt_app_or {A} (a b : list A) :
  last_opt (a ++ b) = match last_opt b with Some x => Some x | None => last_opt a end.
Proof. destruct b as [|x r]; [now rewrite app_nil_r|]. now rewrite last_opt_app2. Qed.

Lemma length_app_lt {A} (ms rest : list A) m : last_opt ms = Some m -> (length rest < length (ms ++ rest))%nat.
Proof. destruct ms; [discriminate|]. intros _. rewrite app_length. cbn [length]. lia. Qed.

Lemma firstn_nonempty {A} (l : list A) n : l <> [] -> (0 < n)%nat -> firstn n l <> [].
Proof. destruct l; [congruence|]. destruct n; [lia|]. discriminate. Qed.

Lemma firstn_length_le {A} (l : list A) n : (length (firstn n l) <= n)%nat.
Proof. apply firstn_le_length. Qed.

Lemma in_firstn {A} (l : list A) n x : In x (firstn n l) -> In x l.
Proof. intros Hin. rewrite <- (firstn_skipn n l). apply in_or_app. now left. Qed.

Lemma in_skipn {A} (l : list A) n x : In x (skipn n l) -> In x l.
Proof. intros Hin. rewrite <- (firstn_skipn n l). apply in_or_app. now right. Qed.

Lemma firstn_app_exact_l {A} (a b : list A) : firstn (length a) (a ++ b) = a.
Proof. induction a; cbn; [reflexivity|]. now f_equal. Qed.

Lemma skipn_app_exact_l {A} (a b : list A) : skipn (length a) (a ++ b) = b.
Proof. induction a; cbn; auto. Qed.

Lemma skipn_app_cons {A} (a : list A) x b : skipn (S (length a)) (a ++ x :: b) = b.
Proof. induction a as [|z a IH]; [reflexivity|exact IH]. Qed.

Lemma firstn_app_cons {A} (a : list A) s l k :
  firstn k (a ++ s :: l) = firstn k a \/ exists k1, firstn k (a ++ s :: l) = a ++ s :: firstn k1 l.
Proof.
  rewrite firstn_app. destruct (Nat.le_gt_cases k (length a)) as [Hle|Hgt].
  - left. replace (k - length a)%nat with O by lia. apply app_nil_r.
  - right. rewrite firstn_all2 by lia. destruct (k - length a)%nat as [|k1] eqn:Ek; [lia|]. now exists k1.
Qed.

Lemma skipn_add {A} a c : forall l : list A, skipn (a + c) l = skipn c (skipn a l).
Proof. induction a as [|a IH]; intros [|x l]; cbn [Nat.add skipn]; try reflexivity; [now rewrite skipn_nil|apply IH]. Qed.

Lemma firstn_add {A} a c : forall l : list A, firstn (a + c) l = firstn a l ++ firstn c (skipn a l).
Proof. induction a as [|a IH]; intros [|x l]; cbn [Nat.add firstn skipn app]; try reflexivity; [now rewrite firstn_nil|now rewrite IH]. Qed.

(* two lists with an n-element field in front that agree outside a window w / w' lying inside the field or behind it *)
Lemma field_or_rest {A} n (c c' r r' pre w w' post : list A) :
  length c = n -> length c' = n -> length w = length w' ->
  c ++ r = pre ++ w ++ post -> c' ++ r' = pre ++ w' ++ post ->
  ((length pre + length w <= n)%nat -> r = r') /\
  ((n <= length pre)%nat -> c = c' /\ r = skipn n pre ++ w ++ post /\ r' = skipn n pre ++ w' ++ post).
Proof.
  intros Lc Lc' Lw E E'.
  assert (S : skipn n (pre ++ w ++ post) = r) by (rewrite <- E, <- Lc; apply skipn_app_exact_l).
  assert (S' : skipn n (pre ++ w' ++ post) = r') by (rewrite <- E', <- Lc'; apply skipn_app_exact_l).
  assert (F : firstn n (pre ++ w ++ post) = c) by (rewrite <- E, <- Lc; apply firstn_app_exact_l).
  assert (F' : firstn n (pre ++ w' ++ post) = c') by (rewrite <- E', <- Lc'; apply firstn_app_exact_l).
  split; intros Hn.
  - rewrite <- S, <- S', !skipn_app, <- Lw. rewrite (skipn_all2 pre), (skipn_all2 w), (skipn_all2 w') by lia. reflexivity.
  - rewrite <- S, <- S', <- F, <- F', !firstn_app, !skipn_app. replace (n - length pre)%nat with O by lia.
    cbn [firstn skipn]. rewrite !app_nil_r. repeat split.
Qed.

Lemma filter_nil_iff {A} (f : A -> bool) (l : list A) :
  filter f l = [] <-> forall x, In x l -> f x = false.
Proof.
  induction l as [|a l IH]; cbn; [tauto|]. destruct (f a) eqn:E; split.
  - discriminate.
  - intros Hall. specialize (Hall a (or_introl eq_refl)). congruence.
  - intros Hn x [<-|Hx]; [assumption|]. now apply IH.
  - intros Hall. apply IH. intros x Hx. apply Hall. now right.
Qed.

Lemma filter_all_true {A} (f : A -> bool) l : (forall x, In x l -> f x = true) -> filter f l = l.
Proof.
  induction l as [|a l IH]; intros Hall; [reflexivity|]. cbn. rewrite (Hall a (or_introl eq_refl)).
  f_equal. apply IH. intros x Hx. apply Hall. now right.
Qed.

Lemma filter_all_false {A} (f : A -> bool) l : (forall x, In x l -> f x = false) -> filter f l = [].
Proof. intros Hall. now apply filter_nil_iff. Qed.

Lemma filter_length_le {A} (f : A -> bool) l : (length (filter f l) <= length l)%nat.
Proof. induction l as [|x l IH]; cbn; [lia|]. destruct (f x); cbn; lia. Qed.

Lemma filter_length_lt {A} (f : A -> bool) l x : In x l -> f x = false -> (length (filter f l) < length l)%nat.
Proof.
  induction l as [|y l IH]; intros Hin Hf; [contradiction|]. cbn [filter length]. pose proof (filter_length_le f l).
  destruct Hin as [->|Hin]; [rewrite Hf; lia|]. specialize (IH Hin Hf). destruct (f y); cbn [length]; lia.
Qed.

Lemma filter_filter_imp {A} (f g : A -> bool) l : (forall x, f x = true -> g x = true) -> filter f (filter g l) = filter f l.
Proof.
  intros Himp. induction l as [|x l IH]; [reflexivity|]. cbn [filter]. destruct (g x) eqn:Eg.
  - cbn [filter]. now rewrite IH.
  - destruct (f x) eqn:Ef; [rewrite (Himp x Ef) in Eg; discriminate|exact IH].
Qed.

Lemma filter_filter' {A} (f g : A -> bool) l : filter f (filter g l) = filter (fun x => g x && f x) l.
Proof. induction l as [|x l IH]; [reflexivity|]. cbn [filter]. destruct (g x); cbn [filter andb]; [destruct (f x); now rewrite IH|exact IH]. Qed.

Lemma filter_map_snd {A B} (f : B -> bool) (l : list (A * B)) : map snd (filter (fun pm => f (snd pm)) l) = filter f (map snd l).
Proof. induction l as [|x l IH]; [reflexivity|]. cbn [filter map]. destruct (f (snd x)); cbn [map]; now rewrite IH. Qed.

Lemma last_opt_filter_keep {A} (f : A -> bool) (l : list A) x :
  last_opt l = Some x -> f x = true -> last_opt (filter f l) = Some x.
Proof.
  intros Hl Hf. destruct (last_opt_some_app l x Hl) as (l' & ->). rewrite filter_app. cbn [filter]. rewrite Hf. apply last_opt_app.
Qed.

Lemma find_app {A} (f : A -> bool) l1 l2 :
  find f (l1 ++ l2) = match find f l1 with Some x => Some x | None => find f l2 end.
Proof. induction l1 as [|a l IH]; [reflexivity|]. cbn. destruct (f a); [reflexivity|exact IH]. Qed.

Lemma find_none_all {A} (f : A -> bool) l : (forall x, In x l -> f x = false) -> find f l = None.
Proof.
  induction l as [|a l IH]; intros Hall; [reflexivity|]. cbn. rewrite (Hall a (or_introl eq_refl)).
  apply IH. intros x Hx. apply Hall. now right.
Qed.

Lemma find_rev_last {A} (f : A -> bool) (l : list A) : find f (rev l) = last_opt (filter f l).
Proof.
  induction l as [|x l IH]; [reflexivity|]. cbn [rev filter]. rewrite find_app, IH. cbn [find].
  destruct (f x); [change (x :: filter f l) with ([x] ++ filter f l); rewrite last_opt_app_or|];
    now destruct (last_opt (filter f l)).
Qed.

Lemma fold_left_cons {A B} (f : A -> B -> A) x l a : fold_left f (x :: l) a = fold_left f l (f a x).
Proof. reflexivity. Qed.

Lemma Forall_app_last {A} (P : A -> Prop) pre x : Forall P (pre ++ [x]) <-> Forall P pre /\ P x.
Proof.
  rewrite Forall_app. split; intros [Ha Hb]; split; auto. now inversion Hb.
Qed.

Lemma Forall_split {A} (P : A -> Prop) pre x post : Forall P (pre ++ x :: post) -> Forall P pre /\ P x /\ Forall P post.
Proof. intros HF. apply Forall_app in HF. destruct HF as [Hp Hx]. inversion Hx; subst. tauto. Qed.

Lemma Forall_firstn {A} (P : A -> Prop) k : forall l, Forall P l -> Forall P (firstn k l).
Proof. induction k as [|k IH]; intros [|x l] H; cbn [firstn]; try constructor; inversion H; subst; auto. Qed.

Lemma forallb_firstn {A} (f : A -> bool) l : forall k, forallb f l = true -> forallb f (firstn k l) = true.
Proof.
  induction l as [|x l IH]; intros k Hl; [destruct k; reflexivity|]. destruct k; [reflexivity|]. cbn [firstn forallb] in *.
  apply andb_prop in Hl. destruct Hl as [Hx Hl]. rewrite Hx. cbn. now apply IH.
Qed.

Lemma forallb_around {A B} (P : B -> bool) (g : A -> B) pre xs post :
  forallb P pre = true -> (forall x, P (g x) = true) -> forallb P post = true -> forallb P (pre ++ map g xs ++ post) = true.
Proof.
  intros Hpre Hg Hpost. rewrite !forallb_app, Hpre, Hpost, andb_true_r. cbn [andb].
  induction xs as [|x xs IH]; [reflexivity|]. cbn [map forallb]. now rewrite Hg.
Qed.

Lemma Forall2_len {A B} (R : A -> B -> Prop) l l' : Forall2 R l l' -> length l = length l'.
Proof. induction 1; cbn; congruence. Qed.

Lemma Forall2_map_eq {A B} (R : A -> A -> Prop) (f : A -> B) l l' :
  (forall a b, R a b -> f b = f a) -> Forall2 R l l' -> map f l' = map f l.
Proof. intros Hf HF. induction HF as [|a b l l' Hab _ IH]; cbn [map]; [reflexivity|]. now rewrite IH, (Hf a b Hab). Qed.

Lemma Forall2_firstn {A B} (R : A -> B -> Prop) n : forall l l', Forall2 R l l' -> Forall2 R (firstn n l) (firstn n l').
Proof. induction n as [|n IH]; intros l l' HF; [constructor|]. destruct HF; cbn [firstn]; constructor; auto. Qed.

Lemma Forall2_skipn {A B} (R : A -> B -> Prop) n : forall l l', Forall2 R l l' -> Forall2 R (skipn n l) (skipn n l').
Proof. induction n as [|n IH]; intros l l' HF; [exact HF|]. destruct HF; cbn [skipn]; [constructor|auto]. Qed.

Lemma Forall2_diag {A} (R : A -> A -> Prop) l : Forall (fun x => R x x) l -> Forall2 R l l.
Proof. induction 1; constructor; assumption. Qed.

Lemma Forall2_trans {A} (R : A -> A -> Prop) :
  (forall a b c, R a b -> R b c -> R a c) -> forall a b c, Forall2 R a b -> Forall2 R b c -> Forall2 R a c.
Proof.
  intros Ht a b c Hab. revert c. induction Hab; intros c Hbc; inversion Hbc; subst; constructor; eauto.
Qed.

Lemma Forall2_Forall_r {A B} (Q : B -> Prop) (l : list A) l' : Forall2 (fun _ y => Q y) l l' -> Forall Q l'.
Proof. induction 1; constructor; assumption. Qed.

Lemma Forall2_conj_r {A B} (P : B -> Prop) (R : A -> B -> Prop) l l' :
  Forall2 (fun x y => P y /\ R x y) l l' -> Forall P l' /\ Forall2 R l l'.
Proof. induction 1 as [|x y l l' [Hp Hr] _ [IHp IHr]]; split; constructor; assumption. Qed.

Lemma nodup_app_l {A} (a b : list A) : NoDup (a ++ b) -> NoDup a.
Proof.
  induction a as [|x a IH]; intros H; [constructor|]. cbn [app] in H. apply NoDup_cons_iff in H. destruct H as [Hx Hr].
  constructor; [intro Hin; apply Hx; apply in_or_app; now left|now apply IH].
Qed.

Lemma zmem_in o offs : zmem o offs = true <-> In o offs.
Proof.
  unfold zmem. rewrite existsb_exists. split.
  - intros (x & Hx & E). apply Z.eqb_eq in E. now subst.
  - intros Hin. exists o. split; [exact Hin|apply Z.eqb_refl].
Qed.

Lemma zmem_filter o f l : zmem o (filter f l) = zmem o l && f o.
Proof.
  unfold zmem. induction l as [|a l IH]; [reflexivity|]. cbn [filter existsb]. destruct (o =? a) eqn:E.
  - apply Z.eqb_eq in E. subst a. destruct (f o); cbn [existsb orb andb]; [now rewrite Z.eqb_refl|rewrite IH; apply andb_false_r].
  - destruct (f a); cbn [existsb orb]; [rewrite E|]; exact IH.
Qed.
