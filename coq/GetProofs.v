(* GetProofs.v — C04 on the model: log.Get satisfies the Spec.v checker in
   every state that satisfies Inv, for every offset.  log_get_exact says what a call at a real offset returns
   in terms of the live messages; OffsetOldest and OffsetNewest are treated apart. *)
From KV Require Import Base Model ListAux SearchProofs ReaderProofs Spec SpecFacts LogInv ConsumeProofs.
From Coq Require Import ZifyBool ZifyNat.

Lemma seg_get_consume first rest off :
  first <= off -> seg_get (first :: rest) off = seg_consume (first :: rest) off.
Proof.
  intros Hle. unfold seg_get, seg_consume. cbn zeta.
  destruct (off =? OffsetOldest); [reflexivity|]. destruct (off =? OffsetNewest); [reflexivity|].
  replace (off <? first) with false by lia.
  destruct (off =? first) eqn:E; [replace (off <=? first) with true by lia|replace (off <=? first) with false by lia]; reflexivity.
Qed.

Lemma seg_get_newest bs : bs <> [] -> seg_get bs OffsetNewest = Ok (zlen bs - 1).
Proof. destruct bs; [congruence|]. intros _. reflexivity. Qed.

Lemma seg_get_spec bs off :
  bs <> [] -> sorted_lt bs -> (forall b, In b bs -> 0 <= b) -> 0 <= off ->
  match bs with
  | [] => False
  | first :: _ =>
    if off <? first then seg_get bs off = Err ESegBefore
    else exists r b, seg_get bs off = Ok r /\ znth bs r = Some b /\ b <= off /\
                     (forall j c, r < j -> znth bs j = Some c -> off < c)
  end.
Proof.
  intros Hne Hs Hnn Hoff. destruct bs as [|first rest]; [congruence|].
  destruct (off <? first) eqn:E.
  - unfold seg_get, OffsetOldest, OffsetNewest. cbn zeta.
    replace (off =? -2) with false by lia. replace (off =? -1) with false by lia. rewrite E.
    replace (first =? 0) with false by lia. reflexivity.
  - rewrite seg_get_consume by lia.
    destruct (seg_consume_spec (first :: rest) off Hne Hs Hnn) as (r & Hr & Hir & Hafter & Hbefore);
      [unfold OffsetNewest; lia|].
    destruct Hbefore as [->|(b & Hb & Hle)].
    + exists 0, first. split; [exact Hr|]. split; [reflexivity|]. split; [lia|exact Hafter].
    + exists r, b. auto.
Qed.

Section GetProofs.
Variable H : bytes -> Z.

Definition obs_get (r : res (lstate * msg)) : obs msg :=
  match r with Ok (_, m) => OOk m | Err e => OErr (classify e) end.

Lemma find_off_sel pre s post off :
  Forall seg_inv (pre ++ s :: post) -> chain_ok (pre ++ s :: post) ->
  sbase s <= off -> (forall s2, In s2 post -> off < sbase s2) ->
  find_off (all_recs (pre ++ s :: post)) off = find_rec (srecs s) off.
Proof.
  intros HF Hch Hle Hafter. apply Forall_app in HF. destruct HF as [_ HF].
  apply Forall_cons_iff in HF. destruct HF as [_ HFp].
  unfold find_off, find_rec. rewrite all_recs_app, all_recs_cons, !find_app.
  rewrite (find_none_all _ (all_recs pre)) by (intros x Hx; pose proof (chain_pre_lt pre s post x Hch Hx); lia).
  destruct (find (fun m => moff m =? off) (srecs s)); [reflexivity|].
  apply find_none_all. intros x Hx. pose proof (all_recs_above post off HFp Hafter x Hx). lia.
Qed.

Lemma get_selects l off :
  l <> [] -> Forall seg_inv l -> chain_ok l -> 0 <= off ->
  (exists s0 rest, l = s0 :: rest /\ off < sbase s0 /\ seg_get (bases l) off = Err ESegBefore) \/
  (exists pre s post, l = pre ++ s :: post /\ seg_get (bases l) off = Ok (zlen pre) /\
     sbase s <= off /\ forall s2, In s2 post -> off < sbase s2).
Proof.
  intros Hne HF Hch Hoff. destruct l as [|s0 rest]; [congruence|].
  destruct (off <? sbase s0) eqn:E.
  - left. exists s0, rest. split; [reflexivity|]. split; [lia|].
    pose proof (seg_get_spec (bases (s0 :: rest)) off) as Hsg. cbn [bases map] in Hsg |- *. rewrite E in Hsg.
    apply Hsg; [discriminate|apply (bases_sorted (s0 :: rest)); exact Hch|
                intro b; apply (bases_nonneg (s0 :: rest)); exact HF|exact Hoff].
  - right. destruct (consume_selects (s0 :: rest) off Hne HF Hch) as (pre & s & post & Hsplit & Hi & Hb & Ha);
      [unfold OffsetNewest; lia|].
    exists pre, s, post. split; [exact Hsplit|]. split; [|split; [|exact Ha]].
    + rewrite <- Hi. cbn [bases map]. apply seg_get_consume. lia.
    + destruct Hb as [->|Hle]; [|exact Hle]. injection Hsplit as <- _. lia.
Qed.

(* What a caller of Get at a real offset observes: the live message with that offset, and when there is none
   an error that says whether the offset was ever assigned *)
Theorem log_get_exact st off :
  Inv st -> 0 <= off ->
  obs_get (log_get H st off) =
  match find_off (live (abs st)) off with
  | Some m => OOk m
  | None => OErr (if off <? anext (abs st) then CNotFound else CInvalidOffset)
  end.
Proof.
  intros HInv Hoff. pose proof HInv as (Hne & HF & Hch & _ & c & Hc & _).
  unfold log_get, get_cfg. rewrite Hc. cbn [bind abs live anext].
  destruct (get_selects (segs st) off Hne HF Hch Hoff)
    as [(s0 & rest & Hsplit & Hlt & ->)|(pre & s & post & Hsplit & -> & Hle & Hafter)]; cbn [bind].
  - (* below the first base, hence below every live offset and below NextOffset *)
    pose proof (base_le_wnext st s0 HF Hch ltac:(rewrite Hsplit; left; reflexivity)).
    replace (find_off (all_recs (segs st)) off) with (@None msg).
    + replace (off <? wnext st) with true by lia. reflexivity.
    + symmetry. apply find_none_all. intros m Hm. cbn beta. enough (off < moff m) by lia.
      apply (all_recs_above (segs st) off HF); [|exact Hm]. rewrite Hsplit in Hch |- *.
      intros s2 [<-|Hin]; [exact Hlt|]. pose proof (chain_base_lt s0 rest s2 Hch Hin). lia.
  - replace (off =? OffsetNewest) with false by (unfold OffsetNewest; lia).
    destruct (is_last_split st pre s post Hsplit) as [-> ->].
    assert (Hs : znth (segs st) (zlen pre) = Some s) by (rewrite Hsplit; apply znth_mid).
    destruct (with_index_read H c st st (zlen pre) s HInv (st_shape_refl st) Hc Hs)
      as (st1 & s' & items & -> & _ & _ & Hok & Hss).
    cbn [bind].
    pose proof (reader_get_spec s' items (match post with [] => true | _ :: _ => false end) off Hok Hoff) as Hrg.
    rewrite (same_shape_recs_next _ _ Hss) in Hrg. destruct Hss as (Hr & _). rewrite Hr in Hrg. clear Hr Hok.
    replace (find_off (all_recs (segs st)) off) with (find_rec (srecs s) off)
      by (symmetry; rewrite Hsplit in HF, Hch |- *; now apply find_off_sel).
    destruct (find_rec (srecs s) off) as [m|]; [rewrite Hrg; reflexivity|].
    destruct Hrg as (e & -> & He).
    pose proof (Forall_znth _ _ _ _ HF Hs) as (_ & _ & Hfb & _). unfold first_is_base in Hfb. clear Hs HInv.
    destruct post as [|s2 post'].
    + (* the head segment: a miss below its next offset was deleted, one at or above it was never assigned *)
      rewrite (wnext_split st pre s [] Hsplit). cbn [last].
      destruct (srecs s) as [|r0 rr] eqn:Er.
      * subst e. unfold recs_next. rewrite Er. cbn [last_opt].
        replace (off <? sbase s) with false by lia. reflexivity.
      * replace (off <? moff r0) with false in He by lia.
        destruct (recs_next s <=? off) eqn:E; subst e;
          [replace (off <? recs_next s) with false by lia|replace (off <? recs_next s) with true by lia]; reflexivity.
    + (* a sealed segment: every miss is a deleted message, since the next base is above off *)
      specialize (Hafter s2 (or_introl eq_refl)).
      pose proof (base_le_wnext st s2 HF Hch ltac:(rewrite Hsplit; apply in_or_app; right; right; left; reflexivity)).
      replace (off <? wnext st) with true by lia.
      assert (Hr : srecs s <> []).
      { apply (chain_nonhead_nonempty pre s (s2 :: post')); [rewrite <- Hsplit; exact Hch|discriminate]. }
      destruct (srecs s) as [|r0 rr]; [congruence|].
      replace (off <? moff r0) with false in He by lia.
      destruct (recs_next s <=? off); subst e; reflexivity.
Qed.

Theorem log_get_correct_abs st off :
  Inv st -> 0 <= off -> check_get (abs st) off (obs_get (log_get H st off)) = true.
Proof.
  intros HInv Hoff. rewrite (log_get_exact st off HInv Hoff).
  destruct (find_off (live (abs st)) off) as [m|] eqn:Ef; [now apply check_get_found|now apply check_get_missing].
Qed.

Theorem log_get_oldest_correct st :
  Inv st -> check_get (abs st) OffsetOldest (obs_get (log_get H st OffsetOldest)) = true.
Proof.
  intros HInv. pose proof HInv as (Hne & HF & Hch & _ & c & Hc & _).
  unfold log_get, get_cfg. rewrite Hc. cbn [bind].
  destruct (segs st) as [|s0 srest] eqn:Esegs; [congruence|].
  unfold bases. cbn [map seg_get]. change (OffsetOldest =? OffsetOldest) with true. cbn [bind].
  change (OffsetOldest =? OffsetNewest) with false. cbn iota.
  destruct (with_index_read H c st st 0 s0 HInv (st_shape_refl st) Hc) as (st1 & s' & items & -> & _ & _ & Hok & Hr & _);
    [rewrite Esegs; reflexivity|].
  cbn [bind]. unfold check_get. change (0 <=? OffsetOldest) with false. change (OffsetOldest =? OffsetOldest) with true.
  cbn iota. cbn [abs live]. rewrite Esegs, all_recs_cons.
  destruct (srecs s0) as [|m r] eqn:Er.
  - (* an empty first segment is the only segment *)
    rewrite (chain_empty_last [] s0 srest Hch Er).
    rewrite (seg_ok_nil_recs s' items Hok) by congruence. reflexivity.
  - rewrite (reader_get_oldest s' items _ m r Hok) by congruence. cbn. apply msg_eqb_refl.
Qed.

Lemma get_newest_back_nonempty c st st1 n i s :
  Inv st1 -> st_shape st st1 -> opened st = Some c -> znth (segs st) i = Some s -> srecs s <> [] ->
  forall d, exists st2, get_newest_back H c st1 (S n) i = Ok (st2, last (srecs s) d).
Proof.
  intros HI1 Hsh Hc Hs Hne d. cbn [get_newest_back].
  destruct (with_index_read H c st st1 i s HI1 Hsh Hc Hs) as (st2 & s' & items & -> & _ & _ & Hok & Hr & _).
  cbn [bind]. rewrite (reader_get_newest s' items _ d Hok) by congruence. rewrite Hr. eauto.
Qed.

Theorem log_get_newest_correct st :
  Inv st -> check_get (abs st) OffsetNewest (obs_get (log_get H st OffsetNewest)) = true.
Proof.
  intros HInv. pose proof HInv as (Hne & HF & Hch & _ & c & Hc & _).
  unfold log_get, get_cfg. rewrite Hc. cbn [bind].
  rewrite seg_get_newest by (intro E; apply Hne, (map_eq_nil _ _ E)). cbn [bind].
  change (OffsetNewest =? OffsetNewest) with true. cbn iota. unfold bases. rewrite zlen_map.
  unfold check_get. change (0 <=? OffsetNewest) with false. change (OffsetNewest =? OffsetOldest) with false.
  change (OffsetNewest =? OffsetNewest) with true. cbn iota. cbn [abs live].
  destruct (@exists_last _ _ Hne) as (pre & hd & Esegs). rewrite Esegs in Hch |- *.
  rewrite app_length, Nat.add_1_r, zlen_app. change (zlen [hd]) with 1. replace (zlen pre + 1 - 1) with (zlen pre) by lia.
  assert (Hhd : znth (segs st) (zlen pre) = Some hd) by (rewrite Esegs; apply znth_mid).
  destruct (srecs hd) as [|m0 r0] eqn:Er.
  - (* empty head: walk back one segment *)
    rewrite (all_recs_nil_head pre hd Er). cbn [get_newest_back].
    destruct (with_index_read H c st st _ hd HInv (st_shape_refl st) Hc Hhd) as (st1 & s' & items & -> & HI1 & Hsh1 & Hok & Hr & _).
    cbn [bind]. rewrite (seg_ok_nil_recs s' items Hok) by congruence.
    unfold reader_get at 1, ridx_get. cbn [index_get ierr_eqb andb bind].
    destruct (exists_last_or_nil pre) as [->|(pre' & s & ->)]; [reflexivity|].
    rewrite app_length, Nat.add_1_r, zlen_app. change (zlen [s]) with 1.
    pose proof (zlen_nonneg pre'). replace (0 <? zlen pre' + 1) with true by lia.
    replace (zlen pre' + 1 - 1) with (zlen pre') by lia.
    rewrite <- app_assoc in Esegs, Hch. cbn [app] in Esegs, Hch.
    assert (Hs : znth (segs st) (zlen pre') = Some s) by (rewrite Esegs; apply znth_mid).
    assert (Hsne : srecs s <> []) by (apply (chain_nonhead_nonempty pre' s [hd] Hch); discriminate).
    destruct (srecs s) as [|q0 qr] eqn:Eq; [congruence|].
    destruct (get_newest_back_nonempty c st st1 (length pre') _ s HI1 Hsh1 Hc Hs ltac:(rewrite Eq; discriminate) q0)
      as (st2 & ->).
    cbn [obs_get]. rewrite (last_opt_all_recs pre' s) by congruence. rewrite Eq.
    rewrite (last_opt_last (q0 :: qr) q0) by discriminate. apply msg_eqb_refl.
  - destruct (get_newest_back_nonempty c st st (length pre) _ hd HInv (st_shape_refl st) Hc Hhd ltac:(rewrite Er; discriminate) m0)
      as (st1 & ->).
    cbn [obs_get]. rewrite (last_opt_all_recs pre hd) by congruence.
    rewrite (last_opt_last (srecs hd) m0) by congruence. apply msg_eqb_refl.
Qed.

Theorem log_get_correct st off :
  Inv st -> check_get (abs st) off (obs_get (log_get H st off)) = true.
Proof.
  intros HInv. destruct (Z_le_gt_dec 0 off) as [Hge|Hlt].
  - now apply log_get_correct_abs.
  - destruct (Z.eq_dec off OffsetOldest) as [->|Ho]; [now apply log_get_oldest_correct|].
    destruct (Z.eq_dec off OffsetNewest) as [->|Hn]; [now apply log_get_newest_correct|].
    unfold check_get, OffsetOldest, OffsetNewest in *.
    destruct (0 <=? off) eqn:E1; [lia|]. destruct (off =? -2) eqn:E2; [lia|]. destruct (off =? -1) eqn:E3; [lia|].
    reflexivity.
Qed.

End GetProofs.
