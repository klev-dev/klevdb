(* C01 / C15 / C16 / C12: the history theorem extended with the helper calls of delete.go, trim_*.go, compact_*.go,
   compact.go (loops of API calls, transcribed in Helpers.v) and with GC.  Each is a step of the handle in ANY Good state
   and whatever it returns - also when it stops with an error after some passes of DeleteMulti have removed messages: the
   abstract log afterwards is the one before minus exactly the messages the call reported, NextOffset is unchanged, the
   handle still Good.  GC drops caches only: the model has none, the step is the identity (what the implementation's GC
   does to later reads is covered by the correspondence runs, which call it). *)
From KV Require Import Base Model Helpers Spec LogInv DeleteProofs ReadsPreserve History.

Section XHistory.
Variable H : bytes -> Z.

Inductive xop :=
| XBase (op : hop)
| XDeleteMulti (offs : list Z)
| XTrimByOffset (before : Z) | XTrimByCount (max : Z) | XTrimBySize (sz : Z) | XTrimByAge (before : Z)
| XCompactUpdates (before : Z) | XCompactDeletes (before : Z)
| XCompact (updates_before deletes_before : Z)
| XDeleteMultiBackoff (bk : nat) (offs : list Z)          (* the backoff function fails at its (bk+1)-th call *)
| XTrimByOffsetBackoff (bk : nat) (before : Z)
| XGC.

Inductive xout :=
| XO (o : hout)
| XDel (deleted : list msg) (size : Z) (err : option ierr)
| XNone.

Definition xdel (r : lstate * list msg * Z * option ierr) : lstate * xout :=
  let '(st', del, size, e) := r in (st', XDel del size e).

(* compact.go Compact: CompactUpdates, then (only if that did not fail) CompactDeletes, then GC *)
Definition compact_both (st : lstate) (ub db : Z) : lstate * list msg * Z * option ierr :=
  let '(s1, d1, z1, e1) := trim_multi H (fun s => find_updates H s ub) st in
  match e1 with
  | Some e => (s1, d1, z1, Some e)
  | None => let '(s2, d2, z2, e2) := trim_multi H (fun s => find_deletes H s db) s1 in (s2, d1 ++ d2, z1 + z2, e2)
  end.

Definition xh_step (st : lstate) (op : xop) : lstate * xout :=
  match op with
  | XBase o => let (s, r) := hstep H st o in (s, XO r)
  | XDeleteMulti offs => xdel (log_delete_multi H st offs)
  | XTrimByOffset b => xdel (trim_multi H (fun s => find_by_offset H s b) st)
  | XTrimByCount n => xdel (trim_multi H (fun s => find_by_count H s n) st)
  | XTrimBySize z => xdel (trim_multi H (fun s => find_by_size H s z) st)
  | XTrimByAge t => xdel (trim_multi H (fun s => find_by_age H s t) st)
  | XCompactUpdates t => xdel (trim_multi H (fun s => find_updates H s t) st)
  | XCompactDeletes t => xdel (trim_multi H (fun s => find_deletes H s t) st)
  | XCompact ub db => xdel (compact_both st ub db)
  | XDeleteMultiBackoff bk offs => xdel (log_delete_multi_bk H bk st offs)
  | XTrimByOffsetBackoff bk b => xdel (trim_multi_bk H bk (fun s => find_by_offset H s b) st)
  | XGC => (st, XNone)
  end.

Definition xh_spec_step (a : alog) (op : xop) (o : xout) : alog :=
  match op, o with
  | XBase b, XO r => spec_step a b r
  | _, XDel deleted _ _ => mkAlog (remove_msgs (live a) deleted) (anext a)
  | _, _ => a
  end.

Fixpoint xh_run (st : lstate) (ops : list xop) : lstate * list xout :=
  match ops with
  | [] => (st, [])
  | op :: r => let (s1, o) := xh_step st op in let (s2, os) := xh_run s1 r in (s2, o :: os)
  end.

Fixpoint xh_spec_run (a : alog) (ops : list xop) (outs : list xout) : alog :=
  match ops, outs with
  | op :: r, o :: os => xh_spec_run (xh_spec_step a op o) r os
  | _, _ => a
  end.

Lemma remove_msgs_app l a b : remove_msgs (remove_msgs l a) b = remove_msgs l (a ++ b).
Proof.
  unfold remove_msgs. induction l as [|m l IH]; [reflexivity|]. cbn [filter]. rewrite existsb_app.
  destruct (existsb (fun d => moff d =? moff m) a) eqn:Ea; cbn [negb orb].
  - exact IH.
  - cbn [filter]. destruct (existsb (fun d => moff d =? moff m) b); cbn [negb]; [exact IH|]. f_equal. exact IH.
Qed.

Definition same_log (st st1 : lstate) : Prop := Good st -> Good st1 /\ abs st1 = abs st.

Lemma same_log_refl st : same_log st st.
Proof. intros HG. split; [exact HG|reflexivity]. Qed.

Lemma same_log_trans a b c : same_log a b -> same_log b c -> same_log a c.
Proof. intros Hab Hbc HG. destruct (Hab HG) as [Gb Ab]. destruct (Hbc Gb) as [Gc Ac]. split; [exact Gc|congruence]. Qed.

Lemma rebuilds_same_log st st1 : (exists c, opened st = Some c /\ rebuilds H c st st1) -> same_log st st1.
Proof.
  intros (c & Hc & Hb) HG. destruct (good_opened st c HG Hc) as [HI|HV].
  - destruct (rebuilds_preserve H st st1 HI (ex_intro _ c (conj Hc Hb))) as (I1 & A1 & _). split; [right; left; exact I1|exact A1].
  - rewrite (proj2 (rebuilds_R H c st st1 Hb) (proj1 HV)). split; [exact HG|reflexivity].
Qed.

Lemma good_delete st offs st1 del sz :
  Good st -> log_delete H st offs = Ok (st1, (del, sz)) ->
  Good st1 /\ abs st1 = mkAlog (remove_msgs (live (abs st)) del) (anext (abs st)).
Proof. intros HG E. pose proof (hstep_good H st (HDel offs) HG) as P. cbn [hstep] in P. rewrite E in P. exact P. Qed.

Lemma scan_loop_good {A} (step : A -> msg -> A * brk) cond : forall fuel st off maxoff acc st' a,
  scan_loop H fuel st off maxoff acc cond step = Ok (st', a) -> same_log st st'.
Proof.
  induction fuel as [|f IH]; intros st off maxoff acc st' a E; [discriminate|]. cbn [scan_loop] in E.
  destruct ((off <? maxoff) && cond acc); [|injection E as <- <-; apply same_log_refl].
  destruct (log_consume H st off 32) as [[st1 [nxt ms]]|] eqn:Ec; [|discriminate]. cbn [bind] in E.
  apply (same_log_trans st st1 st'); [exact (rebuilds_same_log _ _ (log_consume_rebuilds H _ _ _ _ _ Ec))|].
  destruct (inner step acc ms) as [a1 [ | | ]]; [exact (IH _ _ _ _ _ _ E)|exact (IH _ _ _ _ _ _ E)|].
  injection E as <- <-. apply same_log_refl.
Qed.

Definition reads_only (find : lstate -> res (lstate * list Z)) : Prop :=
  forall st st1 offs, Good st -> find st = Ok (st1, offs) -> Good st1 /\ abs st1 = abs st.

(* NextOffset, then the scan, then a projection k of its result: the tail of every Find* but FindByAge *)
Lemma next_scan_good {A B} st fuel off (mx : Z -> Z) acc cond (step : Z -> A -> msg -> A * brk)
      (k : lstate * A -> res (lstate * B)) st2 b :
  (forall s a, k (s, a) = Ok (st2, b) -> s = st2) ->
  (do r <- log_next H st; let '(st1, nxt) := r in
   do r2 <- scan_loop H (fuel st1) st1 off (mx nxt) acc cond (step nxt); k r2) = Ok (st2, b) ->
  same_log st st2.
Proof.
  intros Hk E. destruct (log_next H st) as [[s1 nxt]|] eqn:En; [|discriminate]. cbn [bind] in E.
  destruct (scan_loop _ _ _ _ _ _ _ _) as [[s2 a]|] eqn:Esc; [|discriminate]. cbn [bind] in E. rewrite <- (Hk s2 a E).
  exact (same_log_trans _ s1 _ (rebuilds_same_log _ _ (log_next_rebuilds H _ _ _ En)) (scan_loop_good _ _ _ _ _ _ _ _ _ Esc)).
Qed.

Lemma find_by_offset_reads before : reads_only (fun s => find_by_offset H s before).
Proof.
  intros st st1 offs HG E. revert HG. unfold find_by_offset in E.
  destruct (before =? OffsetOldest); [injection E as <- _; apply same_log_refl|].
  apply next_scan_good in E; [exact E|]. intros s a Ek. now injection Ek.
Qed.

Lemma find_by_count_reads max : reads_only (fun s => find_by_count H s max).
Proof.
  intros st st1 offs HG E. revert HG. unfold find_by_count in E.
  destruct (log_stat H st) as [[sa [[x cnt] y]]|] eqn:Es; [|discriminate]. cbn [bind] in E.
  apply (same_log_trans st sa st1); [exact (rebuilds_same_log _ _ (log_stat_rebuilds H _ _ _ Es))|].
  destruct (cnt <=? max); [injection E as <- _; apply same_log_refl|].
  apply next_scan_good in E; [exact E|]. intros s a Ek. now injection Ek.
Qed.

Lemma find_by_size_reads sz : reads_only (fun s => find_by_size H s sz).
Proof.
  intros st st1 offs HG E. revert HG. destruct (bind_cfg _ _ _ E) as (c & _ & Ec). clear E.
  destruct (log_stat H st) as [[sa [[x cnt] total]]|] eqn:Es; [|discriminate]. cbn [bind] in Ec.
  apply (same_log_trans st sa st1); [exact (rebuilds_same_log _ _ (log_stat_rebuilds H _ _ _ Es))|].
  destruct (total <? sz); [injection Ec as <- _; apply same_log_refl|].
  apply next_scan_good in Ec; [exact Ec|]. intros s a Ek. now injection Ek.
Qed.

Lemma find_by_age_reads before : reads_only (fun s => find_by_age H s before).
Proof.
  intros st st1 offs HG E. revert HG. unfold find_by_age in E.
  match type of E with (do r <- ?first; _) = _ => destruct first as [[sa maxoff]|] eqn:Ef; [|discriminate] end.
  cbn [bind] in E. apply (same_log_trans st sa st1); [|exact (scan_loop_good _ _ _ _ _ _ _ _ _ E)].
  apply rebuilds_same_log. destruct (log_get_by_time H st before) as [[sg m]|e] eqn:Eg.
  - injection Ef as <- _. exact (log_get_by_time_rebuilds H _ _ _ _ Eg).
  - destruct (classify e); try discriminate; exact (log_next_rebuilds H _ _ _ Ef).
Qed.

Lemma find_updates_reads before : reads_only (fun s => find_updates H s before).
Proof.
  intros st st1 offs HG E. revert HG. apply next_scan_good in E; [exact E|]. intros s a Ek. now injection Ek.
Qed.

Lemma find_deletes_reads before : reads_only (fun s => find_deletes H s before).
Proof.
  intros st st1 offs HG E. revert HG. apply next_scan_good in E; [exact E|]. intros s a Ek. now injection Ek.
Qed.

(* DeleteMulti: whatever it returns - also an error after some passes - the log has lost exactly what it reports *)
Lemma delete_multi_bk_good : forall fuel bk st remaining accm accs st' del size e,
  Good st -> delete_multi_bk H fuel bk st remaining accm accs = (st', del, size, e) ->
  Good st' /\ exists nd, del = accm ++ nd /\ abs st' = mkAlog (remove_msgs (live (abs st)) nd) (anext (abs st)).
Proof.
  assert (Hstop : forall st accm, Good st ->
            Good st /\ exists nd, accm = accm ++ nd /\ abs st = mkAlog (remove_msgs (live (abs st)) nd) (anext (abs st))).
  { intros st accm HG. split; [exact HG|]. exists []. rewrite app_nil_r, remove_none. split; [reflexivity|]. symmetry. apply alog_eta. }
  induction fuel as [|f IH]; intros bk st remaining accm accs st' del size e HG E; cbn [delete_multi_bk] in E.
  - injection E as <- <- _ _. exact (Hstop st accm HG).
  - destruct remaining as [|o orest]; [injection E as <- <- _ _; exact (Hstop st accm HG)|].
    destruct (log_delete H st (o :: orest)) as [[st1 [d sz]]|er] eqn:Ed; [|injection E as <- <- _ _; exact (Hstop st accm HG)].
    destruct (good_delete _ _ _ _ _ HG Ed) as [G1 A1]. destruct d as [|d0 dr].
    + injection E as <- <- _ _. split; [assumption|]. exists []. rewrite app_nil_r. split; [reflexivity|exact A1].
    + destruct bk as [|b].
      * injection E as <- <- _ _. split; [assumption|]. exists (d0 :: dr). split; [reflexivity|exact A1].
      * destruct (IH _ _ _ _ _ _ _ _ _ G1 E) as (G' & nd & -> & A'). split; [assumption|].
        exists ((d0 :: dr) ++ nd). split; [now rewrite app_assoc|].
        rewrite A', A1. cbn [live anext]. now rewrite remove_msgs_app.
Qed.

(* a backoff that fails later than the fuel lasts is no backoff *)
Lemma delete_multi_bk_never : forall fuel bk st remaining accm accs,
  (fuel <= bk)%nat -> delete_multi_bk H fuel bk st remaining accm accs = delete_multi H fuel st remaining accm accs.
Proof.
  induction fuel as [|f IH]; intros bk st remaining accm accs Hle; [reflexivity|]. cbn [delete_multi_bk delete_multi].
  destruct remaining as [|o orest]; [reflexivity|]. destruct (log_delete H st (o :: orest)) as [[st1 [[|d0 dr] sz]]|]; try reflexivity.
  destruct bk as [|b]; [lia|]. apply IH. lia.
Qed.

Lemma delete_multi_good : forall fuel st remaining accm accs st' del size e,
  Good st -> delete_multi H fuel st remaining accm accs = (st', del, size, e) ->
  Good st' /\ exists nd, del = accm ++ nd /\ abs st' = mkAlog (remove_msgs (live (abs st)) nd) (anext (abs st)).
Proof. intros fuel st remaining accm accs. rewrite <- (delete_multi_bk_never fuel fuel) by lia. apply delete_multi_bk_good. Qed.

Lemma log_delete_multi_bk_good bk st offs st' del size e :
  Good st -> log_delete_multi_bk H bk st offs = (st', del, size, e) ->
  Good st' /\ abs st' = mkAlog (remove_msgs (live (abs st)) del) (anext (abs st)).
Proof.
  intros HG E. unfold log_delete_multi_bk in E. destruct (delete_multi_bk_good _ _ _ _ _ _ _ _ _ _ HG E) as (G' & nd & -> & A').
  split; [assumption|exact A'].
Qed.

Lemma log_delete_multi_good st offs st' del size e :
  Good st -> log_delete_multi H st offs = (st', del, size, e) ->
  Good st' /\ abs st' = mkAlog (remove_msgs (live (abs st)) del) (anext (abs st)).
Proof.
  intros HG E. unfold log_delete_multi in E. destruct (delete_multi_good _ _ _ _ _ _ _ _ _ HG E) as (G' & nd & -> & A').
  split; [assumption|exact A'].
Qed.

Lemma find_then_good (delete : lstate -> list Z -> lstate * list msg * Z * option ierr) find st st' del size e :
  (forall s offs s' d z er, Good s -> delete s offs = (s', d, z, er) ->
     Good s' /\ abs s' = mkAlog (remove_msgs (live (abs s)) d) (anext (abs s))) ->
  reads_only find -> Good st ->
  match find st with Err er => (st, [], 0, Some er) | Ok (st1, offs) => delete st1 offs end = (st', del, size, e) ->
  Good st' /\ abs st' = mkAlog (remove_msgs (live (abs st)) del) (anext (abs st)).
Proof.
  intros HD HR HG E. destruct (find st) as [[st1 offs]|er] eqn:Ef.
  - destruct (HR _ _ _ HG Ef) as [G1 A1]. destruct (HD _ _ _ _ _ _ G1 E) as [G' A']. split; [assumption|]. rewrite A', A1. reflexivity.
  - injection E as <- <- _ _. split; [assumption|]. rewrite remove_none. symmetry. apply alog_eta.
Qed.

Lemma trim_multi_bk_good bk find st st' del size e :
  reads_only find -> Good st -> trim_multi_bk H bk find st = (st', del, size, e) ->
  Good st' /\ abs st' = mkAlog (remove_msgs (live (abs st)) del) (anext (abs st)).
Proof. exact (find_then_good (log_delete_multi_bk H bk) find st st' del size e (log_delete_multi_bk_good bk)). Qed.

Lemma trim_multi_good find st st' del size e :
  reads_only find -> Good st -> trim_multi H find st = (st', del, size, e) ->
  Good st' /\ abs st' = mkAlog (remove_msgs (live (abs st)) del) (anext (abs st)).
Proof. exact (find_then_good (log_delete_multi H) find st st' del size e log_delete_multi_good). Qed.

Lemma compact_both_good st ub db st' del size e :
  Good st -> compact_both st ub db = (st', del, size, e) ->
  Good st' /\ abs st' = mkAlog (remove_msgs (live (abs st)) del) (anext (abs st)).
Proof.
  intros HG E. unfold compact_both in E.
  destruct (trim_multi H (fun s => find_updates H s ub) st) as [[[s1 d1] z1] e1] eqn:E1.
  destruct (trim_multi_good _ _ _ _ _ _ (find_updates_reads ub) HG E1) as [G1 A1].
  destruct e1 as [er|].
  - injection E as <- <- _ _. split; assumption.
  - destruct (trim_multi H (fun s => find_deletes H s db) s1) as [[[s2 d2] z2] e2] eqn:E2.
    destruct (trim_multi_good _ _ _ _ _ _ (find_deletes_reads db) G1 E2) as [G2 A2].
    injection E as <- <- _ _. split; [assumption|]. rewrite A2, A1. cbn [live anext]. now rewrite remove_msgs_app.
Qed.

Lemma xdel_good st op r :
  (forall st' del size e, r = (st', del, size, e) ->
     Good st' /\ abs st' = mkAlog (remove_msgs (live (abs st)) del) (anext (abs st))) ->
  Good (fst (xdel r)) /\ abs (fst (xdel r)) = xh_spec_step (abs st) op (snd (xdel r)).
Proof.
  intros Hr. destruct r as [[[s d] z] e]. cbn [xdel fst snd]. destruct (Hr s d z e eq_refl) as [G A]. split; [exact G|].
  rewrite A. destruct op; reflexivity.
Qed.

Theorem xh_step_good st op :
  Good st -> Good (fst (xh_step st op)) /\ abs (fst (xh_step st op)) = xh_spec_step (abs st) op (snd (xh_step st op)).
Proof.
  intros HG. destruct op; cbn [xh_step]; try apply xdel_good; try intros st' del size e E.
  - pose proof (hstep_good H st op HG) as P. destruct (hstep H st op) as [s r]. exact P.
  - exact (log_delete_multi_good _ _ _ _ _ _ HG E).
  - exact (trim_multi_good _ _ _ _ _ _ (find_by_offset_reads before) HG E).
  - exact (trim_multi_good _ _ _ _ _ _ (find_by_count_reads max) HG E).
  - exact (trim_multi_good _ _ _ _ _ _ (find_by_size_reads sz) HG E).
  - exact (trim_multi_good _ _ _ _ _ _ (find_by_age_reads before) HG E).
  - exact (trim_multi_good _ _ _ _ _ _ (find_updates_reads before) HG E).
  - exact (trim_multi_good _ _ _ _ _ _ (find_deletes_reads before) HG E).
  - exact (compact_both_good _ _ _ _ _ _ _ HG E).
  - exact (log_delete_multi_bk_good _ _ _ _ _ _ _ HG E).
  - exact (trim_multi_bk_good _ _ _ _ _ _ _ (find_by_offset_reads before) HG E).
  - cbn [fst snd xh_spec_step]. split; [assumption|reflexivity].
Qed.

Theorem xhistory_refines ops : forall st,
  Good st -> Good (fst (xh_run st ops)) /\ abs (fst (xh_run st ops)) = xh_spec_run (abs st) ops (snd (xh_run st ops)).
Proof.
  induction ops as [|op r IH]; intros st HG; cbn [xh_run]; [split; [assumption|reflexivity]|].
  destruct (xh_step st op) as [s1 o] eqn:E1. pose proof (xh_step_good st op HG) as [G1 A1]. rewrite E1 in G1, A1. cbn [fst snd] in G1, A1.
  destruct (xh_run s1 r) as [s2 os] eqn:E2. pose proof (IH s1 G1) as [G2 A2]. rewrite E2 in G2, A2. cbn [fst snd] in *.
  split; [assumption|]. rewrite A2, A1. reflexivity.
Qed.

Lemma xh_spec_step_next a op o : anext a <= anext (xh_spec_step a op o).
Proof. destruct op, o; cbn [xh_spec_step anext]; try apply Z.le_refl. apply spec_step_next. Qed.

Theorem xh_spec_run_next ops : forall outs a, anext a <= anext (xh_spec_run a ops outs).
Proof.
  induction ops as [|op r IH]; intros outs a; cbn [xh_spec_run]; [lia|]. destruct outs as [|o os]; [lia|].
  pose proof (xh_spec_step_next a op o). pose proof (IH os (xh_spec_step a op o)). lia.
Qed.

End XHistory.
