(* AbsFacts.v — what Inv says about the abstract log: strictly increasing offsets, all below NextOffset.  inc (each
   offset below all later ones) is the form of "strictly increasing" that splits over ++. *)
From KV Require Import Base Model ListAux SpecFacts SearchProofs SegProofs Spec LogInv.
From Coq Require Import ZifyBool ZifyNat.

Fixpoint inc (l : list msg) : Prop :=
  match l with [] => True | m :: r => (forall x, In x r -> moff m < moff x) /\ inc r end.

Lemma inc_app a b : inc a -> inc b -> (forall x y, In x a -> In y b -> moff x < moff y) -> inc (a ++ b).
Proof.
  induction a as [|m a IH]; intros Ha Hb Hab; [exact Hb|]. cbn [app inc]. destruct Ha as [Hm Ha]. split.
  - intros x Hx. apply in_app_or in Hx. destruct Hx as [Hx|Hx]; [now apply Hm|]. apply Hab; [left; reflexivity|assumption].
  - apply IH; [assumption|assumption|]. intros x y Hx Hy. apply Hab; [now right|assumption].
Qed.

Lemma inc_app_inv a b : inc (a ++ b) -> inc a /\ inc b /\ forall x y, In x a -> In y b -> moff x < moff y.
Proof.
  induction a as [|m a IH]; intros Hi; cbn [app] in *.
  - split; [exact I|]. split; [exact Hi|]. intros x y [].
  - destruct Hi as [Hm Hi]. destruct (IH Hi) as (Ha & Hb & Hab). split; [split; [|exact Ha]|split; [exact Hb|]].
    + intros x Hx. apply Hm. apply in_or_app. now left.
    + intros x y [->|Hx] Hy; [apply Hm; apply in_or_app; now right|now apply Hab].
Qed.

Lemma inc_offset_inj L a b : inc L -> In a L -> In b L -> moff a = moff b -> a = b.
Proof.
  induction L as [|x L IH]; intros Hi Ha Hb Heq; [contradiction|]. destruct Hi as [Hx Hi].
  destruct Ha as [->|Ha], Hb as [->|Hb]; try reflexivity.
  - specialize (Hx b Hb). lia.
  - specialize (Hx a Ha). lia.
  - now apply IH.
Qed.

Lemma inc_le_last a m x : inc a -> last_opt a = Some m -> In x a -> moff x <= moff m.
Proof.
  induction a as [|y a IH]; intros Hi Hl Hin; [contradiction|]. destruct Hi as [Hy Hi].
  destruct a as [|z a'].
  - cbn in Hl. injection Hl as <-. destruct Hin as [->|[]]. lia.
  - rewrite last_opt_cons_cons in Hl. destruct Hin as [->|Hin].
    + pose proof (Hy m (last_opt_in _ _ Hl)). lia.
    + now apply IH.
Qed.

Lemma recs_sorted_inc l : recs_sorted l -> inc l.
Proof.
  induction l as [|m r IH]; intros Hs; [exact I|]. split.
  - intros x Hx. now apply (recs_sorted_head_lt m r x).
  - apply IH. eapply recs_sorted_tail; eauto.
Qed.

Lemma inc_recs_sorted l : inc l -> recs_sorted l.
Proof.
  induction l as [|m r IH]; intros Hi; [exact sorted_lt_nil|]. destruct Hi as [Hm Hr].
  apply sorted_lt_cons; [|exact (IH Hr)].
  intros o Ho. apply in_map_iff in Ho. destruct Ho as (x & <- & Hx). exact (Hm x Hx).
Qed.

Lemma inc_from lo l : inc l -> (forall x, In x l -> lo < moff x) -> offs_increasing_from lo l.
Proof.
  revert lo; induction l as [|m r IH]; intros lo Hi Hlo; [exact I|]. destruct Hi as [Hm Hr]. split.
  - apply Hlo. left. reflexivity.
  - apply IH; assumption.
Qed.

Lemma inc_offs_increasing l : inc l -> offs_increasing l.
Proof. destruct l as [|m r]; [trivial|]. intros [Hm Hr]. cbn. now apply inc_from. Qed.

Lemma all_recs_inc l : Forall seg_inv l -> chain_ok l -> inc (all_recs l).
Proof.
  induction l as [|s l IH]; intros HF Hch; [exact I|].
  inversion HF as [|? ? Hs HFl]; subst. rewrite all_recs_cons. apply inc_app.
  - apply recs_sorted_inc. destruct Hs as (Hsorted & _). exact Hsorted.
  - apply IH; [assumption|]. eapply chain_ok_tail; eauto.
  - intros x y Hx Hy. destruct (in_all_recs _ _ Hy) as (s2 & Hs2 & Hy2).
    pose proof (chain_offsets_lt s l s2 x Hch Hs2 Hx).
    assert (seg_inv s2) by (rewrite Forall_forall in HFl; now apply HFl).
    pose proof (seg_offsets_ge_base s2 y ltac:(assumption) Hy2). lia.
Qed.

Lemma live_inc st : Inv st -> inc (live (abs st)).
Proof. intros (_ & HF & Hch & _). now apply all_recs_inc. Qed.

Theorem abs_offsets_increasing st : Inv st -> offs_increasing (live (abs st)).
Proof. intros HI. apply inc_offs_increasing, live_inc, HI. Qed.

Theorem abs_offsets_below_next st m : Inv st -> In m (live (abs st)) -> moff m < anext (abs st).
Proof.
  intros (Hne & HF & Hch & _) Hin. unfold abs, wnext in *. cbn [live anext] in *.
  destruct (last_opt (segs st)) as [hd|] eqn:E; [|apply last_opt_none in E; congruence].
  eapply live_lt_wnext; eauto.
Qed.

Lemma anext_nonneg st : Inv st -> 0 <= anext (abs st).
Proof.
  intros (Hne & HF & _). destruct (@exists_last _ _ Hne) as (pre & hd & E).
  cbn [abs anext]. rewrite (wnext_split st pre hd [] E). apply recs_next_nonneg.
  rewrite Forall_forall in HF. apply HF. rewrite E. apply in_elt.
Qed.

Lemma live_nonneg st x : Inv st -> In x (live (abs st)) -> 0 <= moff x.
Proof.
  intros (_ & HF & _) Hx. destruct (in_all_recs _ _ Hx) as (s & Hs & Hxs).
  rewrite Forall_forall in HF. destruct (HF s Hs) as (_ & Hn & _). now apply Hn.
Qed.

Lemma from_off_in st off x :
  Inv st -> In x (from_off (live (abs st)) off) -> In x (live (abs st)) /\ off <= moff x.
Proof.
  intros HI Hx. unfold from_off in Hx. destruct (off <? 0) eqn:E.
  - split; [exact Hx|]. pose proof (live_nonneg st x HI Hx). lia.
  - apply filter_In in Hx. destruct Hx. split; [assumption|lia].
Qed.

Lemma from_off_le_next st off m : Inv st -> In m (from_off (live (abs st)) off) -> off <= anext (abs st).
Proof.
  intros HI Hin. destruct (from_off_in st off m HI Hin) as [Hm Hge].
  pose proof (abs_offsets_below_next st m HI Hm). lia.
Qed.
