(* DurableProofs.v — C06 on the file table: every file but the two of the writing segment is entirely on stable
   storage at all times (rollover fsyncs the retiring segment before the new one is created); after writer.Sync
   (Sync, Close, a Publish with AutoSync) every file is; and whatever is written later, a power loss leaves of every
   file at least the bytes it had when that Sync returned. *)
From KV Require Import Base Model ListAux PublishProofs Durable.
From Coq Require Import ZifyBool ZifyNat.

Lemma fname_eqb_eq a b : fname_eqb a b = true <-> a = b.
Proof.
  split; [|intros ->; destruct b; cbn [fname_eqb]; auto using Z.eqb_refl].
  destruct a, b; cbn [fname_eqb]; try discriminate; try reflexivity; intros E; apply Z.eqb_eq in E; now subst.
Qed.

Lemma fname_eqb_refl a : fname_eqb a a = true.
Proof. now apply fname_eqb_eq. Qed.

Lemma fname_eqb_spec a b : reflect (a = b) (fname_eqb a b).
Proof. apply iff_reflect. symmetry. apply fname_eqb_eq. Qed.

Definition all_durable (t : ftable) : Prop := forall x, In x t -> durable_len x = flen x.
Definition sealed_durable (hb : Z) (t : ftable) : Prop :=
  forall x, In x t -> fnm x <> FLog hb -> fnm x <> FIdx hb -> durable_len x = flen x.

Lemma in_upd t f g y : In y (upd_file t f g) -> exists x, In x t /\ (fnm x = f /\ y = g x \/ fnm x <> f /\ y = x).
Proof.
  unfold upd_file. rewrite in_map_iff. intros (x & <- & Hx). exists x. split; [exact Hx|].
  destruct (fname_eqb_spec (fnm x) f); auto.
Qed.

(* Every invariant here says of some set S of file names that the files with a name in S are entirely on stable storage;
   what a step does to such a statement depends only on the name the step works on *)

Definition dur_on (S : fname -> Prop) (t : ftable) : Prop := forall x, In x t -> S (fnm x) -> durable_len x = flen x.

Lemma dur_on_mono (S S' : fname -> Prop) t : (forall f, S' f -> S f) -> dur_on S t -> dur_on S' t.
Proof. intros Hi Hd x Hx Hs. apply Hd; auto. Qed.

Lemma all_dur_on t : all_durable t <-> dur_on (fun _ => True) t.
Proof. split; intros Hd x Hx; [intros _|]; apply Hd; auto. Qed.

Lemma sealed_dur_on hb t : sealed_durable hb t <-> dur_on (fun f => f <> FLog hb /\ f <> FIdx hb) t.
Proof. split; intros Hd x Hx; [intros [A B]|intros A B]; apply Hd; auto. Qed.

Lemma fsync_dur_on (S : fname -> Prop) f t : dur_on (fun g => S g /\ g <> f) t -> dur_on S (d_exec t (DFsync f)).
Proof.
  intros Hd y Hy Hs. apply in_upd in Hy as (x & Hx & [[_ ->]|[Hn ->]]); [reflexivity|]. apply Hd; auto.
Qed.

Lemma fsync_keeps_dur_on (S : fname -> Prop) f t : dur_on S t -> dur_on S (d_exec t (DFsync f)).
Proof. intros Hd. apply fsync_dur_on. revert Hd. apply dur_on_mono. tauto. Qed.

Lemma write_dur_on (S : fname -> Prop) f n t : ~ S f -> dur_on S t -> dur_on S (d_exec t (DWrite f n)).
Proof.
  intros Hf Hd y Hy Hs. apply in_upd in Hy as (x & Hx & [[E ->]|[_ ->]]); [|now apply Hd].
  cbn [fnm] in Hs. rewrite E in Hs. contradiction.
Qed.

Lemma create_dur_on (S : fname -> Prop) f n t : ~ S f -> dur_on S t -> dur_on S (d_exec t (DCreate f n)).
Proof.
  intros Hf Hd y Hy Hs. apply in_app_or in Hy as [Hy|[<-|[]]]; [now apply Hd|]. contradiction.
Qed.

Lemma d_run_app t a b : d_run t (a ++ b) = d_run (d_run t a) b.
Proof. unfold d_run. apply fold_left_app. Qed.

Lemma write_keeps_sealed hb t f n : (f = FLog hb \/ f = FIdx hb) -> sealed_durable hb t -> sealed_durable hb (d_exec t (DWrite f n)).
Proof. intros Hf Hs. apply sealed_dur_on, write_dur_on; [tauto|now apply sealed_dur_on]. Qed.

Lemma fsync_keeps_sealed hb t f : sealed_durable hb t -> sealed_durable hb (d_exec t (DFsync f)).
Proof. intros Hs. now apply sealed_dur_on, fsync_keeps_dur_on, sealed_dur_on. Qed.

Lemma sync_all_durable hb t : sealed_durable hb t -> all_durable (d_run t (sync_ops hb)).
Proof.
  intros Hs. apply all_dur_on. apply fsync_dur_on, fsync_dur_on. apply sealed_dur_on in Hs. revert Hs. apply dur_on_mono. tauto.
Qed.

Lemma all_sealed hb t : all_durable t -> sealed_durable hb t.
Proof. intros Ha y Hy _ _. now apply Ha. Qed.

Lemma appends_keep_sealed hb : forall sizes t, sealed_durable hb t ->
  sealed_durable hb (d_run t (flat_map (fun s => [DWrite (FLog hb) (fst s); DWrite (FIdx hb) (snd s)]) sizes)).
Proof.
  induction sizes as [|s sizes IH]; intros t Hs; [exact Hs|]. cbn [flat_map app d_run fold_left].
  apply IH. apply write_keeps_sealed; [now right|]. apply write_keeps_sealed; [now left|exact Hs].
Qed.

(* rollover: the retiring segment is fsynced, so that every file is durable when the new head's two files appear *)
Theorem kind_keeps_sealed hb k t :
  sealed_durable hb t -> sealed_durable (snd (kind_ops hb k)) (d_run t (fst (kind_ops hb k))).
Proof.
  intros Hs. destruct k as [sizes| |b hl hi]; cbn [kind_ops fst snd].
  - now apply appends_keep_sealed.
  - apply all_sealed. now apply sync_all_durable.
  - rewrite d_run_app. apply sealed_dur_on. apply create_dur_on; [intuition congruence|]. apply create_dur_on; [intuition congruence|].
    apply sealed_dur_on, all_sealed. now apply sync_all_durable.
Qed.

Lemma kinds_ops_cons hb k ks :
  kinds_ops hb (k :: ks) =
  (fst (kind_ops hb k) ++ fst (kinds_ops (snd (kind_ops hb k)) ks), snd (kinds_ops (snd (kind_ops hb k)) ks)).
Proof. cbn [kinds_ops]. destruct (kind_ops hb k) as [o1 hb1]. cbn [fst snd]. now destruct (kinds_ops hb1 ks). Qed.

Lemma kinds_ops_app : forall a b hb,
  kinds_ops hb (a ++ b) =
  (fst (kinds_ops hb a) ++ fst (kinds_ops (snd (kinds_ops hb a)) b), snd (kinds_ops (snd (kinds_ops hb a)) b)).
Proof.
  induction a as [|k a IH]; intros b hb; [cbn [app kinds_ops fst snd]; now destruct (kinds_ops hb b)|].
  cbn [app]. rewrite !kinds_ops_cons, IH. cbn [fst snd]. now rewrite app_assoc.
Qed.

Theorem kinds_keep_sealed : forall ks hb t,
  sealed_durable hb t -> sealed_durable (snd (kinds_ops hb ks)) (d_run t (fst (kinds_ops hb ks))).
Proof.
  induction ks as [|k ks IH]; intros hb t Hs; [exact Hs|]. rewrite kinds_ops_cons. cbn [fst snd]. rewrite d_run_app.
  apply IH, kind_keeps_sealed, Hs.
Qed.

Definition le_file (x y : fstat) : Prop := fnm y = fnm x /\ flen x <= flen y /\ durable_len x <= durable_len y.

(* what the steps do to a table: names stay, lengths and fsynced lengths never shrink, new files come at the end *)
Definition grows (t t' : ftable) : Prop := exists t1 ext, t' = t1 ++ ext /\ Forall2 le_file t t1.

Lemma le_file_refl x : le_file x x.
Proof. repeat split; lia. Qed.

Lemma le_file_trans x y z : le_file x y -> le_file y z -> le_file x z.
Proof. intros (A & B & C) (A' & B' & C'). repeat split; [congruence|lia|lia]. Qed.

Lemma Forall2_refl_le t : Forall2 le_file t t.
Proof. apply Forall2_diag, Forall_forall. intros x _. apply le_file_refl. Qed.

Lemma grows_refl t : grows t t.
Proof. exists t, []. split; [now rewrite app_nil_r|apply Forall2_refl_le]. Qed.

Lemma grows_trans a b c : grows a b -> grows b c -> grows a c.
Proof.
  intros (b1 & e1 & -> & H1) (c1 & e2 & -> & H2).
  apply Forall2_app_inv_l in H2. destruct H2 as (c11 & c12 & H21 & H22 & ->).
  exists c11, (c12 ++ e2). split; [now rewrite app_assoc|]. exact (Forall2_trans le_file le_file_trans _ _ _ H1 H21).
Qed.

Definition sane (t : ftable) : Prop := forall x, In x t -> 0 <= durable_len x <= flen x.

Definition op_nonneg (o : dop) : Prop := match o with DCreate _ n | DWrite _ n => 0 <= n | DFsync _ => True end.

Lemma upd_sane_grows t f g :
  (forall x, In x t -> le_file x (g x) /\ 0 <= durable_len (g x) <= flen (g x)) -> sane t ->
  sane (upd_file t f g) /\ grows t (upd_file t f g).
Proof.
  intros Hg Hs. split.
  - intros y Hy. apply in_upd in Hy as (x & Hx & [[_ ->]|[_ ->]]); [now apply Hg|now apply Hs].
  - exists (upd_file t f g), []. split; [now rewrite app_nil_r|]. unfold upd_file. clear Hs.
    induction t as [|x t IH]; cbn [map]; constructor.
    + destruct (fname_eqb (fnm x) f); [apply Hg; now left|apply le_file_refl].
    + apply IH. intros y Hy. apply Hg. now right.
Qed.

Lemma d_exec_sane_grows t o : sane t -> op_nonneg o -> sane (d_exec t o) /\ grows t (d_exec t o).
Proof.
  intros Hs Ho. destruct o as [f n|f n|f]; cbn [d_exec op_nonneg] in *.
  2, 3: apply upd_sane_grows; [|exact Hs]; intros x Hx; pose proof (Hs x Hx); unfold le_file, durable_len in *; cbn [fnm flen fsyn];
    (split; [split; [reflexivity|lia]|lia]).
  split; [|exists t, [mkF f n (Some 0)]; split; [reflexivity|apply Forall2_refl_le]].
  intros y Hy. apply in_app_or in Hy as [Hy|[<-|[]]]; [now apply Hs|]. unfold durable_len. cbn [fsyn flen]. lia.
Qed.

Lemma d_run_sane_grows : forall prog t, sane t -> Forall op_nonneg prog -> sane (d_run t prog) /\ grows t (d_run t prog).
Proof.
  induction prog as [|o prog IH]; intros t Hs Hn; [split; [assumption|apply grows_refl]|].
  pose proof (Forall_inv Hn) as Ho. pose proof (Forall_inv_tail Hn) as Hn'.
  change (d_run t (o :: prog)) with (d_run (d_exec t o) prog).
  destruct (d_exec_sane_grows t o Hs Ho) as [A B]. destruct (IH (d_exec t o) A Hn') as [A' B']. split; [exact A'|].
  eapply grows_trans; eassumption.
Qed.

Definition kind_nonneg (k : dkind) : Prop :=
  match k with
  | KAppend sizes => Forall (fun s => 0 <= fst s /\ 0 <= snd s) sizes
  | KSync => True
  | KRoll _ hl hi => 0 <= hl /\ 0 <= hi
  end.

Lemma kind_ops_nonneg hb k : kind_nonneg k -> Forall op_nonneg (fst (kind_ops hb k)).
Proof.
  destruct k as [sizes| |b hl hi]; cbn [kind_ops fst kind_nonneg]; intros Hk.
  - induction Hk as [|s sizes [A B] _ IH]; [constructor|]. cbn [flat_map app]. constructor; [exact A|]. constructor; [exact B|exact IH].
  - repeat constructor.
  - destruct Hk. repeat constructor; assumption.
Qed.

Lemma kinds_ops_nonneg : forall ks hb, Forall kind_nonneg ks -> Forall op_nonneg (fst (kinds_ops hb ks)).
Proof.
  induction ks as [|k ks IH]; intros hb Hk; [constructor|]. rewrite kinds_ops_cons. cbn [fst]. apply Forall_app.
  split; [apply kind_ops_nonneg, (Forall_inv Hk)|apply IH, (Forall_inv_tail Hk)].
Qed.

Lemma cut_keeps_durable : forall a t1 c1,
  all_durable a -> Forall2 le_file a t1 ->
  Forall2 (fun x y => fnm y = fnm x /\ durable_len x <= flen y <= flen x) t1 c1 ->
  Forall2 (fun x y => fnm y = fnm x /\ flen x <= flen y) a c1.
Proof.
  intros a t1 c1 Ha HF. revert c1. induction HF as [|x y a b Hxy _ IH]; intros c1 H1; inversion H1 as [|? z ? c1' Hyz Hrest]; subst; constructor.
  - destruct Hxy as (A & B & C). destruct Hyz as (A' & B'). split; [congruence|].
    pose proof (Ha x (or_introl eq_refl)) as Hx. lia.
  - apply IH; [|assumption]. intros w Hw. apply Ha. now right.
Qed.

(* the bytes every file had when writer.Sync returned are still there after a power loss at ANY later point:
   t_ack is the table when the Sync returned; ks are the steps taken afterwards; tcut what the power loss leaves *)
Theorem acked_lengths_survive t hb ks tcut :
  sane t -> sealed_durable hb t -> Forall kind_nonneg ks ->
  let t_ack := d_run t (sync_ops hb) in
  cut_ok (d_run t_ack (fst (kinds_ops hb ks))) tcut ->
  exists kept newer, tcut = kept ++ newer /\
    Forall2 (fun x y => fnm y = fnm x /\ flen x <= flen y) t_ack kept.
Proof.
  intros Hsane Hs Hk t_ack Hcut.
  assert (Hack : all_durable t_ack) by (now apply sync_all_durable).
  assert (Hsane1 : sane t_ack).
  { apply d_run_sane_grows; [exact Hsane|]. repeat constructor. }
  destruct (d_run_sane_grows (fst (kinds_ops hb ks)) t_ack Hsane1 (kinds_ops_nonneg ks hb Hk)) as [_ (t1 & ext & E & HF)].
  rewrite E in Hcut. unfold cut_ok in Hcut. apply Forall2_app_inv_l in Hcut. destruct Hcut as (c1 & c2 & H1 & _ & ->).
  exists c1, c2. split; [reflexivity|]. exact (cut_keeps_durable t_ack t1 c1 Hack HF H1).
Qed.

Lemma rec_size_nonneg v m : 0 <= rec_size v m.
Proof. unfold rec_size, rec_overhead, zlen. destruct v; lia. Qed.

Lemma item_size_nonneg p : 0 <= item_size p.
Proof. unfold item_size. destruct (ptimes p), (pkeys p); lia. Qed.

Lemma publish_kinds_nonneg st ms : Forall kind_nonneg (publish_kinds st ms).
Proof.
  unfold publish_kinds. destruct (opened st) as [c|]; [|constructor]. destruct (cro c); [constructor|].
  destruct (last_opt (segs st)) as [hd|]; [|constructor]. apply Forall_app. split.
  - destruct (needs_rollover c hd); [|constructor]. constructor; [|constructor]. cbn. destruct (cnewver c); cbn; lia.
  - destruct (existsb msg_too_big ms); [constructor|]. constructor.
    + cbn. apply Forall_forall. intros s Hs. apply in_map_iff in Hs. destruct Hs as (m & <- & _). cbn [fst snd].
      split; [apply rec_size_nonneg|apply item_size_nonneg].
    + destruct (cautosync c); [repeat constructor|constructor].
Qed.

Lemma sync_kinds_nonneg st : Forall kind_nonneg (sync_kinds st).
Proof. unfold sync_kinds. destruct (opened st) as [c|]; [|constructor]. destruct (cro c); repeat constructor. Qed.

Lemma head_base_last st src : last_opt (segs st) = Some src -> head_base st = sbase src.
Proof. unfold head_base. now intros ->. Qed.

(* the steps of a Publish that returns, in the form of PublishProofs.log_publish_eq *)
Lemma publish_kinds_eq st c ms pre hd :
  opened st = Some c -> cro c = false -> segs st = pre ++ [hd] -> sizes_ok ms ->
  publish_kinds st ms =
  (if needs_rollover c hd then [KRoll (idx_next hd (head_items hd)) (hdr_size (cnewver c)) (hdr_size (cnewver c))] else [])
  ++ KAppend (map (fun m => (rec_size (if needs_rollover c hd then cnewver c else sver hd) m, item_size (cparams c))) ms)
     :: (if cautosync c then [KSync] else []).
Proof. intros Hc Hro Es Hsz. unfold sizes_ok in Hsz. unfold publish_kinds. now rewrite Hc, Hro, Es, last_opt_app, Hsz. Qed.

Section ApiSteps.
Variable H : bytes -> Z.

Lemma publish_head_base st ms st' n :
  log_publish H st ms = Ok (st', n) ->
  head_base st' = snd (kinds_ops (head_base st) (publish_kinds st ms)).
Proof.
  intros E. destruct (log_publish_inv H st ms st' n E) as (c & pre & hd & Hc & Hro & Es & Hsz).
  pose proof (log_publish_eq H st c ms pre hd Hc Hro Es Hsz) as E'. cbv zeta in E'. rewrite E in E'. injection E' as -> _.
  rewrite (publish_kinds_eq st c ms pre hd Hc Hro Es Hsz), (head_base_last st hd) by (rewrite Es; apply last_opt_app).
  unfold head_base. cbn [segs]. rewrite last_opt_app.
  destruct (needs_rollover c hd), (cautosync c); reflexivity.
Qed.

(* every file of a sealed segment stays entirely on stable storage across a Publish, rollover included *)
Theorem publish_step_sealed st ms st' n t :
  log_publish H st ms = Ok (st', n) -> sealed_durable (head_base st) t ->
  sealed_durable (head_base st') (d_run t (fst (kinds_ops (head_base st) (publish_kinds st ms)))).
Proof.
  intros E Hs. rewrite (publish_head_base st ms st' n E). now apply kinds_keep_sealed.
Qed.

Lemma ends_with_sync ks hb t :
  sealed_durable hb t -> all_durable (d_run t (fst (kinds_ops hb (ks ++ [KSync])))).
Proof.
  intros Hs. rewrite kinds_ops_app. cbn [fst]. rewrite d_run_app. cbn [kinds_ops kind_ops fst snd]. rewrite app_nil_r.
  apply sync_all_durable. now apply kinds_keep_sealed.
Qed.

(* Sync (and Close, which runs the same writer.Sync first): afterwards every file is entirely on stable storage *)
Theorem sync_step_durable st c t :
  opened st = Some c -> cro c = false -> sealed_durable (head_base st) t ->
  all_durable (d_run t (fst (kinds_ops (head_base st) (sync_kinds st)))).
Proof.
  intros Hc Hro Hs. unfold sync_kinds. rewrite Hc, Hro. apply (ends_with_sync [] _ _ Hs).
Qed.

(* a Publish that returns on a log opened with AutoSync: likewise *)
Theorem autosync_publish_durable st c ms st' n t :
  opened st = Some c -> cautosync c = true -> log_publish H st ms = Ok (st', n) ->
  sealed_durable (head_base st) t ->
  all_durable (d_run t (fst (kinds_ops (head_base st) (publish_kinds st ms)))).
Proof.
  intros Hc Ha E Hs. destruct (log_publish_inv H st ms st' n E) as (c' & pre & hd & Hc' & Hro & Es & Hsz).
  rewrite Hc in Hc'. injection Hc' as <-. rewrite (publish_kinds_eq st c ms pre hd Hc Hro Es Hsz), Ha.
  change (?x ++ ?a :: [KSync]) with (x ++ [a] ++ [KSync]). rewrite app_assoc. now apply ends_with_sync.
Qed.

End ApiSteps.
