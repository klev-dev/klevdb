(* C12/C15/C16: DeleteMulti over a set of live offsets removes all of them and nothing else,
   and hence the Trim...Multi / Compact... helpers (find, then DeleteMulti) remove exactly what they select. *)
From KV Require Import Base Model Helpers ListAux SearchProofs Spec SpecFacts LogInv ConsumeProofs GetProofs
     AbsFacts DeleteProofs TimeProofs TrimProofs CompactProofs.
From Coq Require Import ZifyBool ZifyNat.

Section MultiProofs.
Variable H : bytes -> Z.

Lemma zmin_list_in l : l <> [] -> In (zmin_list l) l.
Proof.
  induction l as [|x l IH]; [congruence|]. intros _. destruct l as [|y l']; [now left|].
  change (zmin_list (x :: y :: l')) with (Z.min x (zmin_list (y :: l'))).
  destruct (Z.min_spec x (zmin_list (y :: l'))) as [[_ ->]|[_ ->]]; [now left|]. right. apply IH. discriminate.
Qed.

Lemma zmin_list_le l x : In x l -> zmin_list l <= x.
Proof.
  induction l as [|y l IH]; [contradiction|]. intros Hin. destruct l as [|z l'].
  - destruct Hin as [->|[]]. cbn. lia.
  - change (zmin_list (y :: z :: l')) with (Z.min y (zmin_list (z :: l'))). destruct Hin as [->|Hin]; [lia|].
    specialize (IH Hin). lia.
Qed.

Lemma remove_msgs_offs L deleted : remove_msgs L deleted = remove_offs L (map moff deleted).
Proof.
  apply filter_ext. intros x. f_equal. unfold zmem.
  induction deleted as [|d l IH]; [reflexivity|]. cbn [existsb map]. rewrite IH. f_equal. apply Z.eqb_sym.
Qed.

Lemma remove_offs_split L D R :
  (forall o, In o D -> In o R) ->
  remove_offs (remove_offs L D) (filter (fun o => negb (zmem o D)) R) = remove_offs L R.
Proof.
  intros Hsub. unfold remove_offs. rewrite filter_filter'. apply filter_ext. intros x. rewrite zmem_filter.
  destruct (zmem (moff x) D) eqn:Ez; [|now rewrite andb_true_r].
  apply zmem_in, Hsub, zmem_in in Ez. now rewrite Ez.
Qed.

Lemma seg_get_live st m :
  Inv st -> In m (live (abs st)) ->
  exists i s, seg_get (bases (segs st)) (moff m) = Ok i /\ znth (segs st) i = Some s /\ In m (srecs s).
Proof.
  intros HI Hm. pose proof (Inv_seg_inv _ HI) as HF. pose proof (Inv_chain _ HI) as Hch.
  pose proof (live_nonneg st m HI Hm) as Hnn. change (In m (all_recs (segs st))) in Hm.
  destruct (get_selects (segs st) (moff m) (Inv_segs_ne _ HI) HF Hch Hnn)
    as [(s0 & rest & Es & Hlt & _)|(pre & s & post & Es & Hg & Hle & Hafter)]; rewrite Es in *.
  - (* not before the first segment: its base is below every live offset *)
    exfalso. apply Forall_cons_iff in HF. destruct HF as [Hs0 HFr]. apply in_app_or in Hm. destruct Hm as [Hm|Hm].
    + pose proof (seg_offsets_ge_base s0 m Hs0 Hm). lia.
    + pose proof (all_recs_above rest (sbase s0) HFr (fun s2 Hs2 => chain_base_lt s0 rest s2 Hch Hs2) m Hm). lia.
  - exists (zlen pre), s. split; [exact Hg|]. split; [apply znth_mid|].
    rewrite all_recs_app in Hm. apply in_app_or in Hm. destruct Hm as [Hm|Hm].
    + pose proof (chain_pre_lt pre s post m Hch Hm). lia.
    + apply in_app_or in Hm. destruct Hm as [Hm|Hm]; [exact Hm|].
      apply Forall_app in HF. destruct HF as [_ HF]. apply Forall_cons_iff in HF.
      pose proof (all_recs_above post (moff m) (proj2 HF) Hafter m Hm). lia.
Qed.

Lemma log_delete_progress c st offs m :
  Inv st -> opened st = Some c -> cro c = false -> offs <> [] ->
  In m (live (abs st)) -> moff m = zmin_list offs ->
  exists st' deleted size, log_delete H st offs = Ok (st', (deleted, size)) /\ In m deleted.
Proof.
  intros HI Hc Hro Hne Hm Hoff. destruct (seg_get_live st m HI Hm) as (i & s & Hi & Hs & Hms). rewrite Hoff in Hi.
  pose proof (Forall_znth _ _ _ _ (Inv_seg_inv _ HI) Hs) as Hs_inv. pose proof (live_nonneg st m HI Hm) as Hm0.
  unfold log_delete, get_cfg. rewrite Hc. cbn [bind]. rewrite Hro.
  destruct offs as [|o0 orest]; [congruence|]. set (offs := o0 :: orest) in *.
  destruct (zmin_list offs <? 0) eqn:E0; [lia|]. rewrite Hi. cbn [bind]. rewrite Hs, (seg_inv_open_log s Hs_inv). cbn [bind].
  assert (Hdel : In m (filter (fun x => zmem (moff x) offs) (srecs s))).
  { apply filter_In. split; [exact Hms|]. apply zmem_in. rewrite Hoff. apply zmin_list_in. discriminate. }
  destruct (filter (fun x => zmem (moff x) offs) (srecs s)) as [|d0 dr]; [contradiction|].
  destruct (is_last st i).
  + destruct (filter (fun x => negb (zmem (moff x) offs)) (srecs s)) as [|s0 sr]; [eexists _, _, _; split; [reflexivity|exact Hdel]|].
    match goal with |- context [if ?b then _ else _] => destruct b end; eexists _, _, _; (split; [reflexivity|exact Hdel]).
  + destruct (filter (fun x => negb (zmem (moff x) offs)) (srecs s)); eexists _, _, _; (split; [reflexivity|exact Hdel]).
Qed.

Lemma delete_multi_pass f st remaining accm accs st1 deleted sz :
  remaining <> [] -> deleted <> [] -> log_delete H st remaining = Ok (st1, (deleted, sz)) ->
  delete_multi H (S f) st remaining accm accs =
  delete_multi H f st1 (filter (fun o => negb (zmem o (map moff deleted))) remaining) (accm ++ deleted) (accs + sz).
Proof.
  intros Hr Hd E. cbn [delete_multi]. destruct remaining; [congruence|]. rewrite E. destruct deleted; [congruence|reflexivity].
Qed.

(* DeleteMulti over live offsets: every pass deletes the requested messages of one more segment *)
Theorem delete_multi_live c : forall fuel st remaining accm accs,
  Inv st -> opened st = Some c -> cro c = false ->
  (forall o, In o remaining -> exists m, In m (live (abs st)) /\ moff m = o) ->
  (length remaining < fuel)%nat ->
  exists st' del size,
    delete_multi H fuel st remaining accm accs = (st', accm ++ del, accs + size, None) /\
    Inv st' /\ opened st' = Some c /\ anext (abs st') = anext (abs st) /\
    live (abs st') = remove_offs (live (abs st)) remaining /\
    (forall x, In x del <-> In x (live (abs st)) /\ In (moff x) remaining).
Proof.
  induction fuel as [|f IH]; intros st remaining accm accs HI Hc Hro Hlive Hf; [lia|].
  destruct remaining as [|o0 orest].
  - exists st, [], 0. rewrite app_nil_r, Z.add_0_r. split; [reflexivity|]. split; [exact HI|]. split; [exact Hc|]. split; [reflexivity|].
    split; [unfold remove_offs; symmetry; apply filter_all_true; intros; reflexivity|]. intros x. split; [intros []|intros [_ []]].
  - set (remaining := o0 :: orest) in *. assert (Hne : remaining <> []) by (unfold remaining; discriminate).
    destruct (Hlive _ (zmin_list_in remaining Hne)) as (m & Hm & Hmo).
    destruct (log_delete_progress c st remaining m HI Hc Hro Hne Hm Hmo) as (st1 & deleted & sz & Ed & Hmd).
    destruct (log_delete_ok H st remaining st1 deleted sz c HI Hc Ed) as [(-> & _)|(HI1 & Ho1 & An1 & Al1 & src & Hsrc & Hdel & _)]; [contradiction|].
    rewrite (delete_multi_pass f st remaining accm accs st1 deleted sz Hne ltac:(intros ->; contradiction) Ed).
    set (D := map moff deleted) in *. set (rem := filter (fun o => negb (zmem o D)) remaining).
    pose proof (live_inc st HI) as Hinc.
    (* the pass removed live, requested messages; what is left to do is live in the new state *)
    assert (Hdel_sub : forall x, In x deleted -> In x (live (abs st)) /\ In (moff x) remaining).
    { intros x Hx. rewrite Hdel in Hx. unfold del_of in Hx. apply filter_In in Hx. destruct Hx as [Hxs Hz]. split.
      - unfold abs. cbn [live]. eapply all_recs_in_seg; eauto.
      - now apply zmem_in. }
    assert (Al1' : live (abs st1) = remove_offs (live (abs st)) D) by (rewrite Al1; apply remove_msgs_offs).
    assert (Hrem_live : forall o, In o rem -> exists x, In x (live (abs st1)) /\ moff x = o).
    { intros o Ho. apply filter_In in Ho. destruct Ho as [Hor Hnd].
      destruct (Hlive o Hor) as (x & Hx & Hxo). exists x. split; [|exact Hxo]. rewrite Al1'. apply filter_In. rewrite Hxo. split; assumption. }
    assert (Hrem_len : (length rem < length remaining)%nat).
    { apply (filter_length_lt _ remaining (moff m)); [rewrite Hmo; now apply zmin_list_in|].
      apply negb_false_iff, zmem_in, in_map, Hmd. }
    destruct (IH st1 rem (accm ++ deleted) (accs + sz) HI1 (eq_trans Ho1 Hc) Hro Hrem_live ltac:(clear -Hrem_len Hf; cbn [length] in Hf; lia))
      as (st' & del & size & Em & HI' & Ho' & An' & Al' & Hd').
    rewrite Em. exists st', (deleted ++ del), (sz + size).
    split; [rewrite app_assoc, Z.add_assoc; reflexivity|]. split; [exact HI'|]. split; [exact Ho'|]. split; [exact (eq_trans An' An1)|].
    split.
    + rewrite Al', Al1'. apply remove_offs_split. intros o Ho. apply in_map_iff in Ho. destruct Ho as (d & <- & Hd). now apply Hdel_sub.
    + intros x. rewrite in_app_iff, Hd', Al1'. unfold remove_offs, rem. rewrite !filter_In. split.
      * intros [Hx|[[Hx _] [Hr _]]]; [apply Hdel_sub, Hx|split; assumption].
      * intros [Hx Hr]. destruct (zmem (moff x) D) eqn:Ez; [left|right; split; split; trivial].
        apply zmem_in, in_map_iff in Ez. destruct Ez as (d & Hdo & Hd).
        destruct (Hdel_sub d Hd) as [HdL _]. now rewrite (inc_offset_inj _ x d Hinc Hx HdL ltac:(congruence)).
Qed.

(* in particular: deleting the same offsets again *)
Theorem log_delete_dead c st offs st' deleted size :
  Inv st -> opened st = Some c ->
  (forall m, In m (live (abs st)) -> ~ In (moff m) offs) ->
  log_delete H st offs = Ok (st', (deleted, size)) -> deleted = [] /\ st' = st /\ size = 0.
Proof.
  intros HI Hc Hdead E.
  destruct (log_delete_inv H st offs st' deleted size E) as (_ & _ & _ & [(Hd & Hs & Hsz & _)|(pre & src & post & Es & _ & Hd & Hne & _)]); [auto|].
  (* the segment Delete selected holds live messages only, so none of them is requested *)
  exfalso. destruct deleted as [|d dr]; [congruence|]. assert (Hin : In d (del_of offs (srecs src))) by (rewrite <- Hd; now left).
  apply filter_In in Hin. destruct Hin as [Hds Hz]. apply (Hdead d); [|now apply zmem_in].
  apply (all_recs_in_seg (segs st) src d); [rewrite Es; apply in_elt|exact Hds].
Qed.

Theorem trim_multi_spec c (find : lstate -> res (lstate * list Z)) st st1 offs :
  Inv st -> opened st = Some c -> cro c = false ->
  find st = Ok (st1, offs) -> Inv st1 -> abs st1 = abs st -> opened st1 = Some c ->
  (forall o, In o offs -> exists m, In m (live (abs st)) /\ moff m = o) ->
  exists st' del size,
    trim_multi H find st = (st', del, size, None) /\ Inv st' /\ anext (abs st') = anext (abs st) /\
    live (abs st') = remove_offs (live (abs st)) offs /\
    (forall x, In x del <-> In x (live (abs st)) /\ In (moff x) offs).
Proof.
  intros HI Hc Hro Hf HI1 HA1 Hc1 Hlive. unfold trim_multi, log_delete_multi. rewrite Hf.
  destruct (delete_multi_live c (S (length offs)) st1 offs [] 0 HI1 Hc1 Hro ltac:(rewrite HA1; exact Hlive) (Nat.lt_succ_diag_r _))
    as (st' & del & size & E & HI' & _ & An & Al & Hd).
  rewrite E. exists st', del, size. cbn [app]. rewrite Z.add_0_l. split; [reflexivity|]. split; [exact HI'|].
  rewrite HA1 in *. split; [exact An|]. split; [exact Al|exact Hd].
Qed.

Lemma remove_below L before :
  remove_offs L (map moff (filter (fun m => moff m <? before) L)) = filter (fun m => before <=? moff m) L.
Proof.
  apply filter_ext_in. intros x Hx. destruct (zmem (moff x) (map moff (filter (fun m => moff m <? before) L))) eqn:Ez; cbn [negb].
  - apply zmem_in, in_map_iff in Ez. destruct Ez as (y & Hyo & Hy). apply filter_In in Hy. lia.
  - destruct (before <=? moff x) eqn:El; [reflexivity|].
    rewrite <- Ez. symmetry. apply zmem_in, in_map, filter_In. split; [exact Hx|lia].
Qed.

(* TrimByOffset: afterwards no live offset below the bound; everything else untouched *)
Theorem trim_by_offset_spec c st before :
  Inv st -> opened st = Some c -> cro c = false -> before <> OffsetOldest -> before <> OffsetNewest ->
  exists st' del size,
    trim_multi H (fun s => find_by_offset H s before) st = (st', del, size, None) /\ Inv st' /\
    anext (abs st') = anext (abs st) /\
    live (abs st') = filter (fun m => before <=? moff m) (live (abs st)).
Proof.
  intros HI Hc Hro Ho Hn. destruct (find_by_offset_ok H st before HI) as (st1 & Ef & HI1 & HA1 & Ho1).
  rewrite (proj2 (Z.eqb_neq _ _) Ho), (proj2 (Z.eqb_neq _ _) Hn) in Ef.
  destruct (trim_multi_spec c (fun s => find_by_offset H s before) st st1 _ HI Hc Hro Ef HI1 HA1 (eq_trans Ho1 Hc)) as (st' & del & size & E & HI' & An & Al & _).
  - intros o Hs. apply in_map_iff in Hs. destruct Hs as (x & <- & Hx). apply filter_In in Hx. exists x. split; [exact (proj1 Hx)|reflexivity].
  - exists st', del, size. split; [exact E|]. split; [exact HI'|]. split; [exact An|]. rewrite Al. apply remove_below.
Qed.

Lemma remove_first_k : forall k L, inc L -> remove_offs L (firstn k (map moff L)) = skipn k L.
Proof.
  induction k as [|k IH]; intros L Hinc.
  - cbn [firstn skipn]. unfold remove_offs. apply filter_all_true. intros; reflexivity.
  - destruct L as [|x r]; [reflexivity|]. destruct Hinc as [Hx Hr]. cbn [map firstn skipn]. unfold remove_offs. cbn [filter].
    assert (Hhd : zmem (moff x) (moff x :: firstn k (map moff r)) = true) by (apply zmem_in; now left).
    rewrite Hhd. cbn [negb]. rewrite <- (IH r Hr). unfold remove_offs. apply filter_ext_in. intros y Hy.
    unfold zmem. cbn [existsb]. specialize (Hx y Hy). destruct (moff y =? moff x) eqn:E; [lia|reflexivity].
Qed.

(* TrimByCountMulti: afterwards exactly the newest min(count, max) messages are left, untouched *)
Theorem trim_by_count_spec c st max :
  Inv st -> opened st = Some c -> cro c = false -> 0 <= max ->
  exists st' del size,
    trim_multi H (fun s => find_by_count H s max) st = (st', del, size, None) /\ Inv st' /\
    anext (abs st') = anext (abs st) /\
    let cnt := zlen (live (abs st)) in
    live (abs st') = skipn (Z.to_nat (cnt - max)) (live (abs st)) /\
    zlen (live (abs st')) = Z.min cnt max.
Proof.
  intros HI Hc Hro Hmax. destruct (find_by_count_ok H st max HI) as (st1 & Ef & HI1 & HA1 & Ho1). cbv zeta in Ef.
  set (L := live (abs st)) in *. set (cnt := zlen L) in *.
  pose proof (live_inc st HI) as Hinc. fold L in Hinc.
  set (offs := if cnt <=? max then [] else firstn (Z.to_nat (cnt - max)) (map moff L)) in *.
  destruct (trim_multi_spec c (fun s => find_by_count H s max) st st1 offs HI Hc Hro Ef HI1 HA1 (eq_trans Ho1 Hc))
    as (st' & del & size & E & HI' & An & Al & _).
  { intros o Ho. unfold offs in Ho. destruct (cnt <=? max); [contradiction|]. apply in_firstn, in_map_iff in Ho.
    destruct Ho as (x & Ex & Hx). eauto. }
  exists st', del, size. split; [exact E|]. split; [exact HI'|]. split; [exact An|]. cbv zeta. fold L in Al. fold L. fold cnt.
  assert (Hres : live (abs st') = skipn (Z.to_nat (cnt - max)) L).
  { rewrite Al. unfold offs. destruct (cnt <=? max) eqn:Ec; [|now apply remove_first_k].
    replace (Z.to_nat (cnt - max)) with O by (clear -Ec; lia). apply filter_all_true. intros; reflexivity. }
  split; [exact Hres|]. rewrite Hres. unfold zlen. rewrite skipn_length. unfold cnt, zlen. clear -Hmax. lia.
Qed.

Lemma examined_in before L m : In m (examined before L) -> In m L /\ mtime m <= before.
Proof.
  unfold examined. destruct (take_while_split (go_on (newer before)) L) as (t & r & -> & -> & Ht & _). intros Hm.
  split; [apply in_or_app; now left|]. rewrite forallb_forall in Ht. specialize (Ht m Hm). unfold go_on, newer in Ht. lia.
Qed.

Lemma examined_prefix before L : exists R, L = examined before L ++ R.
Proof. unfold examined. destruct (take_while_split (go_on (newer before)) L) as (t & r & -> & -> & _). now exists r. Qed.

Lemma has_later_in P o : has_later P o -> exists m, In m P /\ moff m = o.
Proof. intros (pre & m & mid & m' & post & -> & Hm & _). exists m. split; [apply in_elt|exact Hm]. Qed.

Lemma first_of_key_in P o : first_of_key P o -> exists m, In m P /\ moff m = o.
Proof. intros (pre & m & post & -> & Hm & _). exists m. split; [apply in_elt|exact Hm]. Qed.

Lemma trim_examined c (find : lstate -> res (lstate * list Z)) st before offs :
  Inv st -> opened st = Some c -> cro c = false ->
  (exists st1, find st = Ok (st1, offs) /\ Inv st1 /\ abs st1 = abs st /\ opened st1 = opened st) ->
  (forall o, In o offs -> exists m, In m (examined before (live (abs st))) /\ moff m = o) ->
  exists st' del size,
    trim_multi H find st = (st', del, size, None) /\ Inv st' /\ anext (abs st') = anext (abs st) /\
    live (abs st') = remove_offs (live (abs st)) offs /\
    (forall x, In x del <-> In x (live (abs st)) /\ In (moff x) offs) /\
    (forall x, In x (live (abs st)) -> ~ In x del -> In x (live (abs st'))).
Proof.
  intros HI Hc Hro (st1 & Ef & HI1 & HA1 & Ho1) Hsel.
  destruct (trim_multi_spec c find st st1 offs HI Hc Hro Ef HI1 HA1) as (st' & del & size & E & HI' & An & Al & Hd); [exact (eq_trans Ho1 Hc)| |].
  - intros o Ho. destruct (Hsel o Ho) as (m & Hm & Hmo). exists m. split; [now apply (examined_in before)|exact Hmo].
  - exists st', del, size. split; [exact E|]. split; [exact HI'|]. split; [exact An|]. split; [exact Al|]. split; [exact Hd|].
    intros x HxL Hnd. rewrite Al. apply filter_In. split; [exact HxL|].
    destruct (zmem (moff x) offs) eqn:Ez; [|reflexivity]. exfalso. apply Hnd, Hd. split; [exact HxL|now apply zmem_in].
Qed.

(* CompactUpdates: for every key the last live message is the same before and after; only messages not newer
   than the cut-off that have a later message with the same key are removed *)
Theorem compact_updates_spec c st before :
  Inv st -> opened st = Some c -> cro c = false ->
  exists st' del size,
    trim_multi H (fun s => find_updates H s before) st = (st', del, size, None) /\ Inv st' /\
    anext (abs st') = anext (abs st) /\
    (forall k, latest k (live (abs st')) = latest k (live (abs st))) /\
    (forall x, In x del -> In x (live (abs st)) /\ has_later (examined before (live (abs st))) (moff x) /\ mtime x <= before) /\
    (forall x, In x (live (abs st)) -> ~ In x del -> In x (live (abs st'))).
Proof.
  intros HI Hc Hro. set (L := live (abs st)). set (P := examined before L).
  destruct (upd_sound P) as [_ Hsound]. cbv zeta in Hsound.
  destruct (trim_examined c (fun s => find_updates H s before) st before _ HI Hc Hro (find_updates_ok H st before HI))
    as (st' & del & size & E & HI' & An & Al & Hd & Hkeep); [intros o Ho; apply has_later_in, Hsound, Ho|].
  exists st', del, size. split; [exact E|]. split; [exact HI'|]. split; [exact An|]. fold L in Al, Hd. fold P in Al, Hd.
  pose proof (live_inc st HI) as Hinc. fold L in Hinc. split; [|split; [|exact Hkeep]].
  - intros k. rewrite Al. destruct (examined_prefix before L) as (R & HLR). exact (updates_keep_latest L P R _ Hinc HLR Hsound k).
  - intros x Hx. apply Hd in Hx. destruct Hx as [HxL Hxo]. split; [exact HxL|]. split; [now apply Hsound|].
    destruct (has_later_in _ _ (Hsound _ Hxo)) as (m & HmP & Hm). apply examined_in in HmP.
    now rewrite (inc_offset_inj L x m Hinc HxL (proj1 HmP) ltac:(congruence)).
Qed.

(* CompactDeletes: the latest VALUE of every key is the same before and after; only value-less messages not
   newer than the cut-off that are the first message of their key are removed *)
Theorem compact_deletes_spec c st before :
  Inv st -> opened st = Some c -> cro c = false ->
  exists st' del size,
    trim_multi H (fun s => find_deletes H s before) st = (st', del, size, None) /\ Inv st' /\
    anext (abs st') = anext (abs st) /\
    (forall k, latest_value k (live (abs st')) = latest_value k (live (abs st))) /\
    (forall x, In x del -> In x (live (abs st)) /\ first_of_key (examined before (live (abs st))) (moff x)) /\
    (forall x, In x (live (abs st)) -> ~ In x del -> In x (live (abs st'))).
Proof.
  intros HI Hc Hro. set (L := live (abs st)). set (P := examined before L).
  destruct (del_sound P) as [_ Hsound]. cbv zeta in Hsound.
  destruct (trim_examined c (fun s => find_deletes H s before) st before _ HI Hc Hro (find_deletes_ok H st before HI))
    as (st' & del & size & E & HI' & An & Al & Hd & Hkeep); [intros o Ho; apply first_of_key_in, Hsound, Ho|].
  exists st', del, size. split; [exact E|]. split; [exact HI'|]. split; [exact An|]. fold L in Al, Hd. fold P in Al, Hd.
  pose proof (live_inc st HI) as Hinc. fold L in Hinc. split; [|split; [|exact Hkeep]].
  - intros k. rewrite Al. destruct (examined_prefix before L) as (R & HLR). exact (deletes_keep_latest_value L P R _ Hinc HLR Hsound k).
  - intros x Hx. apply Hd in Hx. destruct Hx as [HxL Hxo]. split; [exact HxL|now apply Hsound].
Qed.

Lemma tmono_examined before : forall L lo x, tmono lo L -> In x L -> mtime x <= before -> In x (examined before L).
Proof.
  unfold examined. induction L as [|y L IH]; intros lo x Hm Hx Hb; [contradiction|]. cbn [take_while].
  cbn [tmono] in Hm. destruct Hm as [Hlo Hm].
  assert (Hy : mtime y <= before).
  { destruct Hx as [->|Hx]; [exact Hb|]. pose proof (tmono_ge _ _ _ Hm Hx). lia. }
  assert (Eg : go_on (newer before) y = true) by (unfold go_on, newer; lia). rewrite Eg.
  destruct Hx as [->|Hx]; [now left|]. right. eapply IH; eassumption.
Qed.

Lemma first_with {A} (f : A -> bool) : forall b y, In y b -> f y = true ->
  exists mid m' post, b = mid ++ m' :: post /\ f m' = true /\ forall z, In z mid -> f z = false.
Proof.
  induction b as [|z b IH]; intros y Hy Hf; [contradiction|]. destruct (f z) eqn:Ez.
  - exists [], z, b. split; [reflexivity|]. split; [exact Ez|]. intros ? [].
  - destruct Hy as [->|Hy]; [congruence|]. destruct (IH y Hy Hf) as (mid & m' & post & -> & Hm' & Hmid).
    exists (z :: mid), m', post. split; [reflexivity|]. split; [exact Hm'|]. intros w [->|Hw]; [exact Ez|now apply Hmid].
Qed.

Lemma later_same_key_selected P a x b y :
  P = a ++ x :: b -> In y b -> mkey y = mkey x -> In (moff x) (fst (fold_left upd_g P ([], []))).
Proof.
  intros HP Hy Hk. apply upd_complete.
  destruct (first_with (has_key (mkey x)) b y Hy) as (mid & m' & post & Hb & Hm' & Hmid).
  { unfold has_key. rewrite Hk. apply SpecFacts.bytes_eqb_refl. }
  exists a, x, mid, m', post. split; [rewrite HP, Hb; reflexivity|]. split; [reflexivity|]. split.
  - unfold has_key in Hm'. apply bytes_eqb_eq in Hm'. congruence.
  - intros z Hz Ek. specialize (Hmid z Hz). unfold has_key in Hmid. rewrite <- Ek, SpecFacts.bytes_eqb_refl in Hmid. discriminate.
Qed.

(* CompactUpdates on a log whose times never decrease: among the messages not newer than the cut-off at
   most one per key is left *)
Theorem compact_updates_one_per_key c st before lo :
  Inv st -> opened st = Some c -> cro c = false -> tmono lo (live (abs st)) ->
  exists st' del size,
    trim_multi H (fun s => find_updates H s before) st = (st', del, size, None) /\ Inv st' /\
    forall x y, In x (live (abs st')) -> In y (live (abs st')) -> mtime x <= before -> mtime y <= before ->
                mkey x = mkey y -> x = y.
Proof.
  intros HI Hc Hro Hmono. set (L := live (abs st)) in *. set (P := examined before L). set (offs := fst (fold_left upd_g P ([], []))).
  destruct (trim_examined c (fun s => find_updates H s before) st before offs HI Hc Hro (find_updates_ok H st before HI))
    as (st' & del & size & E & HI' & _ & Al & _); [intros o Ho; apply has_later_in; now apply upd_sound|].
  exists st', del, size. split; [exact E|]. split; [exact HI'|]. fold L in Al. rewrite Al.
  (* of two examined messages with one key the earlier one is selected *)
  assert (Hkey : forall x y a b, P = a ++ x :: b -> In y b -> mkey y = mkey x -> In x (remove_offs L offs) -> False).
  { intros x y a b HP Hy Hk Hx. pose proof (later_same_key_selected P a x b y HP Hy Hk) as Hsel. fold offs in Hsel.
    apply filter_In in Hx. destruct Hx as [_ Hx]. apply zmem_in in Hsel. rewrite Hsel in Hx. discriminate. }
  intros x y Hx Hy Hbx Hby Hk.
  pose proof (tmono_examined before L lo x Hmono (proj1 (proj1 (filter_In _ _ _) Hx)) Hbx) as HxP. fold P in HxP.
  pose proof (tmono_examined before L lo y Hmono (proj1 (proj1 (filter_In _ _ _) Hy)) Hby) as HyP. fold P in HyP.
  destruct (in_split _ _ HxP) as (a & b & HP).
  rewrite HP in HyP. apply in_app_or in HyP. destruct HyP as [Hya|[E'|Hyb]].
  - destruct (in_split _ _ Hya) as (a1 & a2 & Ha). exfalso.
    apply (Hkey y x a1 (a2 ++ x :: b)); [rewrite HP, Ha, <- app_assoc; reflexivity|apply in_elt|now symmetry|exact Hy].
  - exact E'.
  - exfalso. apply (Hkey x y a b HP Hyb); [now symmetry|exact Hx].
Qed.

End MultiProofs.
