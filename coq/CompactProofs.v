(* CompactProofs.v — C15 (FindByAge) and C16 (FindUpdates, FindDeletes): what the helpers select (the three are
   TrimProofs.scan_stop loops; the last two are folds of upd_g / del_g over the examined messages), and why
   removing the selection never changes the latest value of any key. *)
From KV Require Import Base Model Helpers ListAux SearchProofs Spec SpecFacts LogInv AbsFacts ScanProofs
     TrimProofs.
From Coq Require Import ZifyBool ZifyNat.

Section CompactProofs.
Variable H : bytes -> Z.

Definition newer (before : Z) (m : msg) : bool := before <? mtime m.

Definition upd_g (a : list Z * list (bytes * Z)) (m : msg) : list Z * list (bytes * Z) :=
  match assoc_find (mkey m) (snd a) with
  | Some prev => (fst a ++ [prev], assoc_set (mkey m) (moff m) (snd a))
  | None => (fst a, assoc_set (mkey m) (moff m) (snd a))
  end.

Definition examined (before : Z) (l : list msg) : list msg := take_while (go_on (newer before)) l.

(* FindUpdates and FindDeletes are the same loop with two step functions *)
Lemma scan_keyed (g : list Z * list (bytes * Z) -> msg -> list Z * list (bytes * Z)) step st before :
  (forall a m, step a m = stop_step (newer before) g BreakOuter a m) -> Inv st ->
  exists st', (do r <- log_next H st;
               let '(st1, nxt) := r in
               do r2 <- scan_loop H (scan_fuel st1) st1 OffsetOldest nxt ([], []) (fun _ => true) step;
               let '(st2, a) := r2 in Ok (st2, fst a)) =
    Ok (st', fst (fold_left g (examined before (live (abs st))) ([], []))) /\
    Inv st' /\ abs st' = abs st /\ opened st' = opened st.
Proof.
  intros He HI. destruct (log_next_ok H st HI) as (st1 & En & HI1 & HA1 & Ho1). rewrite En. cbn [bind].
  destruct (scan_stop_full H (newer before) g st1 ([], []) HI1) as (st2 & Es & HI2 & HA2 & Ho2).
  rewrite <- HA1, (scan_loop_ext H step _ _ He), Es. cbn [bind]. exists st2. split; [reflexivity|]. split; [exact HI2|]. split; [exact HA2|exact (eq_trans Ho2 Ho1)].
Qed.

Theorem find_updates_ok st before :
  Inv st ->
  exists st', find_updates H st before =
    Ok (st', fst (fold_left upd_g (examined before (live (abs st))) ([], []))) /\
    Inv st' /\ abs st' = abs st /\ opened st' = opened st.
Proof.
  apply (scan_keyed upd_g). intros a m. unfold stop_step, newer, upd_g. destruct (before <? mtime m); [reflexivity|].
  destruct (assoc_find (mkey m) (snd a)); reflexivity.
Qed.

Theorem find_updates_spec st before :
  Inv st ->
  exists st', find_updates H st before =
    Ok (st', fst (fold_left upd_g (examined before (live (abs st))) ([], []))) /\
    Inv st' /\ abs st' = abs st.
Proof. intros HI. destruct (find_updates_ok st before HI) as (st' & E & HI' & HA' & _). exists st'. split; [exact E|split; assumption]. Qed.

Definition del_g (a : list Z * list (bytes * Z)) (m : msg) : list Z * list (bytes * Z) :=
  match assoc_find (mkey m) (snd a) with
  | Some _ => a
  | None => (match mval m with [] => fst a ++ [moff m] | _ => fst a end, assoc_set (mkey m) (moff m) (snd a))
  end.

Theorem find_deletes_ok st before :
  Inv st ->
  exists st', find_deletes H st before =
    Ok (st', fst (fold_left del_g (examined before (live (abs st))) ([], []))) /\
    Inv st' /\ abs st' = abs st /\ opened st' = opened st.
Proof.
  apply (scan_keyed del_g). intros a m. unfold stop_step, newer, del_g. destruct (before <? mtime m); [reflexivity|].
  destruct (assoc_find (mkey m) (snd a)); reflexivity.
Qed.

Theorem find_deletes_spec st before :
  Inv st ->
  exists st', find_deletes H st before =
    Ok (st', fst (fold_left del_g (examined before (live (abs st))) ([], []))) /\
    Inv st' /\ abs st' = abs st.
Proof. intros HI. destruct (find_deletes_ok st before HI) as (st' & E & HI' & HA' & _). exists st'. split; [exact E|split; assumption]. Qed.

Ltac app_eq := repeat (rewrite <- app_assoc || (progress cbn [app])); reflexivity.

Lemma bytes_eqb_sym a b : bytes_eqb a b = bytes_eqb b a.
Proof.
  revert b. induction a as [|x a IH]; intros [|y b]; cbn [bytes_eqb]; try reflexivity. rewrite N.eqb_sym, IH. reflexivity.
Qed.

Lemma bytes_eqb_trans_t a b c : bytes_eqb a b = true -> bytes_eqb b c = bytes_eqb a c.
Proof. intros E. apply bytes_eqb_eq in E. now subst. Qed.

Lemma assoc_find_set k k' v l :
  assoc_find k (assoc_set k' v l) = if bytes_eqb k k' then Some v else assoc_find k l.
Proof.
  induction l as [|[k2 v2] l IH]; cbn [assoc_set assoc_find].
  - destruct (bytes_eqb k k'); reflexivity.
  - destruct (bytes_eqb k' k2) eqn:E2; cbn [assoc_find].
    + apply bytes_eqb_eq in E2. subst k2. destruct (bytes_eqb k k'); reflexivity.
    + rewrite IH. destruct (bytes_eqb k k2) eqn:E3; destruct (bytes_eqb k k') eqn:E1; try reflexivity.
      exfalso. apply bytes_eqb_eq in E1, E3. subst. rewrite SpecFacts.bytes_eqb_refl in E2. discriminate.
Qed.

Definition map_ok (mp : list (bytes * Z)) (P : list msg) : Prop :=
  forall k, assoc_find k mp = option_map moff (last_opt (filter (has_key k) P)).

Lemma map_ok_step mp P x : map_ok mp P -> map_ok (assoc_set (mkey x) (moff x) mp) (P ++ [x]).
Proof.
  intros Hm k. rewrite assoc_find_set, filter_app. cbn [filter]. unfold has_key at 2.
  destruct (bytes_eqb k (mkey x)).
  - now rewrite last_opt_app.
  - rewrite app_nil_r. apply Hm.
Qed.

(* m' is the next message with the key of m *)
Definition has_later (P : list msg) (o : Z) : Prop :=
  exists pre m mid m' post, P = pre ++ m :: mid ++ m' :: post /\ moff m = o /\ mkey m' = mkey m /\
                            (forall x, In x mid -> mkey x <> mkey m).

Lemma last_filter_split k P m :
  last_opt (filter (has_key k) P) = Some m ->
  exists pre post, P = pre ++ m :: post /\ has_key k m = true /\ forall x, In x post -> has_key k x = false.
Proof.
  induction P as [|x P IH] using rev_ind; [discriminate|]. rewrite filter_app. cbn [filter]. destruct (has_key k x) eqn:E.
  - rewrite last_opt_app. intros Eq. injection Eq as <-. exists P, []. split; [reflexivity|]. split; [exact E|intros y []].
  - rewrite app_nil_r. intros Hl. destruct (IH Hl) as (pre & post & -> & Hk & Hpost).
    exists pre, (post ++ [x]). split; [app_eq|]. split; [exact Hk|].
    intros y Hy. apply in_app_or in Hy. destruct Hy as [Hy|[->|[]]]; [now apply Hpost|exact E].
Qed.

Lemma has_later_snoc P x o :
  has_later (P ++ [x]) o <-> has_later P o \/ exists m, last_opt (filter (has_key (mkey x)) P) = Some m /\ moff m = o.
Proof.
  split.
  - intros (pre & m & mid & m' & post & E & Hm & Hk & Hmid).
    destruct (exists_last_or_nil post) as [->|(post' & y & ->)].
    + right. exists m. split; [|exact Hm].
      assert (E' : P ++ [x] = (pre ++ m :: mid) ++ [m']) by (rewrite E; app_eq). apply app_inj_tail in E'. destruct E' as [-> ->].
      rewrite filter_app. cbn [filter]. unfold has_key at 2. rewrite Hk, SpecFacts.bytes_eqb_refl.
      rewrite (filter_all_false _ mid); [apply last_opt_app|]. intros z Hz. unfold has_key.
      destruct (bytes_eqb (mkey m) (mkey z)) eqn:Eb; [|reflexivity]. apply bytes_eqb_eq in Eb. exfalso. apply (Hmid z Hz). now symmetry.
    + left. exists pre, m, mid, m', post'. split; [|split; [exact Hm|split; [exact Hk|exact Hmid]]].
      assert (E' : P ++ [x] = (pre ++ m :: mid ++ m' :: post') ++ [y]) by (rewrite E; app_eq). apply app_inj_tail in E'. exact (proj1 E').
  - intros [(pre & m & mid & m' & post & -> & Hr)|(m & El & Hm)].
    + exists pre, m, mid, m', (post ++ [x]). split; [app_eq|exact Hr].
    + destruct (last_filter_split _ _ _ El) as (pre & post & -> & Hk & Hpost). exists pre, m, post, x, []. split; [app_eq|]. split; [exact Hm|].
      unfold has_key in Hk. apply bytes_eqb_eq in Hk. split; [exact Hk|].
      intros y Hy Hc. specialize (Hpost y Hy). unfold has_key in Hpost. rewrite Hk, <- Hc, SpecFacts.bytes_eqb_refl in Hpost. discriminate.
Qed.

(* FindUpdates selects exactly the messages that are followed, among the examined ones, by a message with the same
   key (an offset is selected when that next message is met: it is the one the map holds for the key) *)
Theorem upd_spec : forall P,
  let r := fold_left upd_g P ([], []) in
  map_ok (snd r) P /\ forall o, In o (fst r) <-> has_later P o.
Proof.
  induction P as [|x P IH] using rev_ind.
  - split; [intros k; reflexivity|]. intros o. split; [intros []|]. intros (pre & m & mid & m' & post & E & _). destruct pre; discriminate.
  - rewrite fold_left_app. cbn [fold_left]. cbv zeta in IH. destruct IH as [Hmap Hiff]. set (r := fold_left upd_g P ([], [])) in *.
    split; [unfold upd_g; destruct (assoc_find (mkey x) (snd r)); now apply map_ok_step|].
    intros o. rewrite has_later_snoc, <- Hiff. unfold upd_g. rewrite (Hmap (mkey x)).
    destruct (last_opt (filter (has_key (mkey x)) P)) as [m|]; cbn [option_map fst].
    + rewrite in_app_iff. cbn [In]. split; (intros [Ho|Ho]; [now left|right]).
      * destruct Ho as [<-|[]]. now exists m.
      * destruct Ho as (m0 & E & <-). injection E as <-. now left.
    + split; [now left|]. intros [Ho|(m0 & E & _)]; [exact Ho|discriminate].
Qed.

Theorem upd_sound : forall P,
  let r := fold_left upd_g P ([], []) in
  map_ok (snd r) P /\ forall o, In o (fst r) -> has_later P o.
Proof. intros P. destruct (upd_spec P) as [Hmap Hiff]. split; [exact Hmap|]. intros o. apply Hiff. Qed.

(* so among the examined messages at most one per key remains *)
Lemma upd_complete : forall P o, has_later P o -> In o (fst (fold_left upd_g P ([], []))).
Proof. intros P o. apply (upd_spec P). Qed.

(* FindDeletes selects only value-less messages that are the first message of their key among the examined ones *)
Definition first_of_key (P : list msg) (o : Z) : Prop :=
  exists pre m post, P = pre ++ m :: post /\ moff m = o /\ mval m = [] /\ forall x, In x pre -> mkey x <> mkey m.

Definition seen_ok (mp : list (bytes * Z)) (P : list msg) : Prop :=
  forall k, assoc_find k mp = None <-> filter (has_key k) P = [].

Theorem del_sound : forall P,
  let r := fold_left del_g P ([], []) in
  seen_ok (snd r) P /\ forall o, In o (fst r) -> first_of_key P o.
Proof.
  induction P as [|x P IH] using rev_ind; [split; [intros k; split; reflexivity|intros o []]|].
  rewrite fold_left_app. cbn [fold_left]. cbv zeta in IH. destruct IH as [Hseen Hsound].
  set (r := fold_left del_g P ([], [])) in *. unfold del_g.
  assert (Hext : forall o, first_of_key P o -> first_of_key (P ++ [x]) o).
  { intros o (pre & m & post & -> & Hm & Hv & Hpre). exists pre, m, (post ++ [x]). split; [app_eq|]. repeat split; assumption. }
  destruct (assoc_find (mkey x) (snd r)) as [prev|] eqn:Ef.
  - split; [|intros o Ho; apply Hext; now apply Hsound].
    intros k. rewrite filter_app. cbn [filter]. unfold has_key at 2. destruct (bytes_eqb k (mkey x)) eqn:Ek.
    + apply bytes_eqb_eq in Ek. subst k. rewrite Ef. split; [discriminate|]. intros Hc. destruct (filter _ P); discriminate.
    + rewrite app_nil_r. apply Hseen.
  - cbn [fst snd]. split.
    + intros k. rewrite assoc_find_set, filter_app. cbn [filter]. unfold has_key at 2. destruct (bytes_eqb k (mkey x)) eqn:Ek.
      * split; [discriminate|]. intros Hc. destruct (filter _ P); discriminate.
      * rewrite app_nil_r. apply Hseen.
    + intros o Ho. assert (Hnone : filter (has_key (mkey x)) P = []) by (apply Hseen; exact Ef).
      assert (Hnew : mval x = [] -> first_of_key (P ++ [x]) (moff x)).
      { intros Hv. exists P, x, []. split; [reflexivity|]. split; [reflexivity|]. split; [exact Hv|].
        intros y Hy Hc. assert (Hyf : In y (filter (has_key (mkey x)) P)).
        { apply filter_In. split; [exact Hy|]. unfold has_key. rewrite Hc. apply SpecFacts.bytes_eqb_refl. }
        rewrite Hnone in Hyf. contradiction. }
      destruct (mval x) eqn:Ev.
      * apply in_app_or in Ho. destruct Ho as [Ho|[<-|[]]]; [apply Hext; now apply Hsound|now apply Hnew].
      * apply Hext. now apply Hsound.
Qed.

Definition remove_offs (L : list msg) (offs : list Z) : list msg := filter (fun m => negb (zmem (moff m) offs)) L.

Definition latest (k : bytes) (L : list msg) : option msg := last_opt (filter (has_key k) L).

(* a message without value means 'absent' *)
Definition latest_value (k : bytes) (L : list msg) : option bytes :=
  match latest k L with
  | Some m => match mval m with [] => None | v => Some v end
  | None => None
  end.

Lemma inc_split_unique a x b a' y b' :
  inc (a ++ x :: b) -> a ++ x :: b = a' ++ y :: b' -> moff x = moff y -> a = a' /\ x = y /\ b = b'.
Proof.
  revert a'. induction a as [|z a IH]; intros [|z' a'] Hi E Ho; cbn [app] in *.
  - injection E as -> ->. auto.
  - injection E as -> ->. destruct Hi as [Hx _]. specialize (Hx y (in_elt y a' b')). lia.
  - injection E as -> <-. destruct Hi as [Hz _]. specialize (Hz x (in_elt x a b)). lia.
  - injection E as -> E. destruct Hi as [_ Hi]. destruct (IH a' Hi E Ho) as (-> & -> & ->). auto.
Qed.

Lemma latest_keep k L offs x pre post :
  L = pre ++ x :: post -> has_key k x = true -> (forall y, In y post -> has_key k y = false) ->
  zmem (moff x) offs = false -> latest k (remove_offs L offs) = Some x.
Proof.
  intros -> Hk Hpost Hx. unfold latest, remove_offs. rewrite filter_app. cbn [filter]. rewrite Hx. cbn [negb].
  rewrite filter_app. cbn [filter]. rewrite Hk.
  assert (Hnil : filter (has_key k) (filter (fun m => negb (zmem (moff m) offs)) post) = []).
  { apply filter_all_false. intros y Hy. apply filter_In in Hy. destruct Hy as [Hy _]. now apply Hpost. }
  rewrite Hnil. apply last_opt_app.
Qed.

Lemma latest_removed k L offs :
  (forall y, In y L -> zmem (moff y) offs = false -> has_key k y = false) -> latest k (remove_offs L offs) = None.
Proof.
  intros Hn. unfold latest. replace (filter (has_key k) (remove_offs L offs)) with (@nil msg); [reflexivity|].
  symmetry. apply filter_nil_iff. intros y Hy. apply filter_In in Hy. destruct Hy as [HyL Hz].
  apply Hn; [exact HyL|]. now destruct (zmem (moff y) offs).
Qed.

Lemma latest_none k L offs : latest k L = None -> latest k (remove_offs L offs) = None.
Proof.
  intros E. apply last_opt_none in E. apply latest_removed. intros y Hy _. exact (proj1 (filter_nil_iff _ _) E y Hy).
Qed.

(* CompactUpdates: every selected message has a later message with the same key, so the last message of every
   key stays *)
Theorem updates_keep_latest L P R offs :
  inc L -> L = P ++ R -> (forall o, In o offs -> has_later P o) ->
  forall k, latest k (remove_offs L offs) = latest k L.
Proof.
  intros Hinc HL Hsel k. destruct (latest k L) as [x|] eqn:El; [|now apply latest_none].
  destruct (last_filter_split _ _ _ El) as (pre & post & HLx & Hk & Hpost).
  apply (latest_keep k L offs x pre post HLx Hk Hpost).
  destruct (zmem (moff x) offs) eqn:Ez; [|reflexivity]. exfalso. apply zmem_in in Ez.
  destruct (Hsel _ Ez) as (p1 & m & mid & m' & p2 & HP & Hm & Hkm & _).
  (* the selected message is x, so its successor m' lies behind x, where no message has the key *)
  rewrite HLx in Hinc.
  destruct (inc_split_unique pre x post p1 m (mid ++ m' :: p2 ++ R) Hinc) as (_ & <- & ->); [rewrite <- HLx, HL, HP; app_eq|now symmetry|].
  specialize (Hpost m' (in_elt m' mid (p2 ++ R))). unfold has_key in *. rewrite Hkm in Hpost. congruence.
Qed.

(* CompactDeletes: every selected message is value-less and the first of its key, so the latest VALUE of every
   key stays (a key whose only message is a value-less one is absent before and after) *)
Theorem deletes_keep_latest_value L P R offs :
  inc L -> L = P ++ R -> (forall o, In o offs -> first_of_key P o) ->
  forall k, latest_value k (remove_offs L offs) = latest_value k L.
Proof.
  intros Hinc HL Hsel k. unfold latest_value. destruct (latest k L) as [x|] eqn:El; [|now rewrite latest_none].
  destruct (last_filter_split _ _ _ El) as (pre & post & HLx & Hk & Hpost).
  destruct (zmem (moff x) offs) eqn:Ez; [|now rewrite (latest_keep k L offs x pre post HLx Hk Hpost Ez)].
  (* x itself is removed: it is value-less and the only message of its key *)
  pose proof Ez as Hsx. apply zmem_in in Hsx. destruct (Hsel _ Hsx) as (p1 & m & p2 & HP & Hm & Hv & Hfirst).
  rewrite HLx in Hinc.
  destruct (inc_split_unique pre x post p1 m (p2 ++ R) Hinc) as (-> & <- & _); [rewrite <- HLx, HL, HP; app_eq|now symmetry|].
  rewrite Hv, latest_removed; [reflexivity|]. intros y HyL Hz. rewrite HLx in HyL. apply in_app_or in HyL. destruct HyL as [Hin|[<-|Hin]].
  - destruct (has_key k y) eqn:E; [|reflexivity]. exfalso. apply (Hfirst y Hin). unfold has_key in Hk, E. apply bytes_eqb_eq in Hk, E. congruence.
  - congruence.
  - now apply Hpost.
Qed.

(* whatever GetByTime returns is a live message, in any state (no index invariant, no order of times): FindByAge
   takes its offset as the bound of the scan *)
Lemma read_at_from_in v : forall recs cur pos m, read_at_from v cur recs pos = Ok m -> In m recs.
Proof.
  induction recs as [|x r IH]; intros cur pos m E; [discriminate|]. cbn [read_at_from] in E.
  destruct (pos =? cur); [injection E as <-; now left|]. destruct (pos <? cur + rec_size v x); [discriminate|]. right. eapply IH; eauto.
Qed.

Lemma with_index_live c st i sa s items m :
  Inv st -> opened st = Some c -> with_index H c st i = Ok (sa, s, items) -> In m (srecs s) -> In m (live (abs st)).
Proof.
  intros HI Hc Hw Hm. destruct (znth (segs st) i) as [s0|] eqn:Hs0; [|unfold with_index in Hw; rewrite Hs0 in Hw; discriminate].
  destruct (with_index_ok H c st i s0 HI Hc Hs0) as (st1 & s' & items' & Hw' & _ & (Hr & _) & _).
  rewrite Hw' in Hw. injection Hw as _ <- _. rewrite Hr in Hm. exact (all_recs_in_seg (segs st) s0 m (znth_in _ _ _ Hs0) Hm).
Qed.

Lemma get_by_time_back_live c ts : forall n st i cand st1 cand1,
  Inv st -> opened st = Some c ->
  (forall m, cand = TFound m -> In m (live (abs st))) ->
  get_by_time_back H c st ts n i cand = Ok (st1, cand1) ->
  Inv st1 /\ abs st1 = abs st /\ opened st1 = Some c /\ forall m, cand1 = TFound m -> In m (live (abs st)).
Proof.
  induction n as [|n IH]; intros st i cand st1 cand1 HI Hc Hcand E; cbn [get_by_time_back] in E.
  - injection E as <- <-. split; [exact HI|]. split; [reflexivity|]. split; [exact Hc|exact Hcand].
  - destruct (with_index H c st i) as [[[sa s] items]|] eqn:Hw; [|discriminate]. cbn [bind] in E.
    destruct (with_index_preserves H c st i sa s items HI Hc Hw) as (HIa & HAa & Hca & _).
    pose proof (fun cand' => IH sa (i - 1) cand' st1 cand1 HIa Hca) as Hrec. rewrite HAa in Hrec.
    destruct (reader_get_by_time s items ts) as [m0|e] eqn:Er.
    + apply (Hrec (TFound m0)); [|exact E]. intros m Em. injection Em as <-. apply (with_index_live c st i sa s items m0 HI Hc Hw).
      unfold reader_get_by_time in Er. destruct (index_time items ts); [|discriminate]. cbn [bind] in Er.
      unfold read_at in Er. eapply read_at_from_in; eauto.
    + destruct e; try discriminate.
      * apply (Hrec cand Hcand E).
      * apply (Hrec (TBefore i)); [intros m Em; discriminate|exact E].
      * injection E as <- <-. split; [exact HIa|]. split; [exact HAa|]. split; [exact Hca|].
        intros m Em. destruct cand; try discriminate. injection Em as <-. now apply Hcand.
Qed.

Theorem log_get_by_time_live st ts st1 m :
  Inv st -> log_get_by_time H st ts = Ok (st1, m) -> In m (live (abs st)) /\ Inv st1 /\ abs st1 = abs st.
Proof.
  intros HI. destruct (Inv_opened st HI) as (c & Hc). unfold log_get_by_time, get_cfg. rewrite Hc. cbn [bind].
  destruct (negb (ctimes c)); [discriminate|].
  destruct (get_by_time_back H c st ts (length (segs st)) (zlen (segs st) - 1) TEmpty) as [[sa cand]|] eqn:Eb; [|discriminate].
  cbn [bind]. destruct (get_by_time_back_live c ts (length (segs st)) st (zlen (segs st) - 1) TEmpty sa cand HI Hc ltac:(intros m0 E0; discriminate) Eb) as (HIa & HAa & Hca & Hlive).
  destruct cand as [| |m0|j]; try discriminate.
  - intros E. injection E as <- <-. split; [now apply Hlive|split; assumption].
  - destruct (with_index H c sa j) as [[[sb s] items]|] eqn:Hw; [|discriminate]. cbn [bind].
    destruct (with_index_preserves H c sa j sb s items HIa Hca Hw) as (HIb & HAb & _).
    destruct (reader_get s items (is_last st j) OffsetOldest) as [m1|] eqn:Er; [|discriminate]. cbn [bind]. intros E. injection E as <- <-.
    split; [|split; [exact HIb|congruence]]. rewrite <- HAa. apply (with_index_live c sa j sb s items m1 HIa Hca Hw).
    unfold reader_get in Er. destruct (ridx_get s items (is_last st j) OffsetOldest); [|discriminate]. cbn [bind] in Er.
    unfold read_at in Er. eapply read_at_from_in; eauto.
Qed.

(* the scan of FindByAge for any bound maxoff, P being what is known of it *)
Lemma age_scan (P : Z -> Prop) st before s1 maxoff st' offs :
  Inv s1 -> abs s1 = abs st -> maxoff <= anext (abs st) -> P maxoff ->
  scan_loop H (scan_fuel s1) s1 OffsetOldest maxoff [] (fun _ => true) (stop_step (newer before) collect BreakOuter) = Ok (st', offs) ->
  Inv st' /\ abs st' = abs st /\
  exists D rest, live (abs st) = D ++ rest /\ offs = map moff D /\
                 (forall x, In x D -> mtime x <= before) /\
                 match rest with [] => True | m :: _ => before < mtime m \/ exists maxoff, maxoff <= moff m /\ P maxoff end.
Proof.
  intros HI1 HA1. rewrite <- HA1. intros Hmax HP.
  destruct (scan_stop H (newer before) collect BreakOuter s1 maxoff [] ltac:(discriminate) ltac:(discriminate) HI1 Hmax)
    as (s2 & a & Es & (D & rest & HL & Ha & HD & Hrest) & HI2 & HA2 & _).
  rewrite Es. intros E. injection E as <- <-. split; [exact HI2|]. split; [exact HA2|].
  exists D, rest. split; [exact HL|]. split; [rewrite Ha; apply fold_collect|]. split.
  - intros x Hx. rewrite forallb_forall in HD. specialize (HD x Hx). unfold go_on, newer in HD. lia.
  - destruct rest as [|m r]; [exact I|]. destruct Hrest as [Hs|Hm]; [left; unfold newer in Hs; lia|]. right. exists maxoff. split; assumption.
Qed.

(* FindByAge: the bound of the scan is the offset of the message GetByTime reports, or NextOffset when it reports
   ErrNotFound / ErrNoIndex; the statement records the bound in the first case only *)
Theorem find_by_age_spec st before st' offs :
  Inv st -> find_by_age H st before = Ok (st', offs) ->
  Inv st' /\ abs st' = abs st /\
  exists D rest, live (abs st) = D ++ rest /\ offs = map moff D /\
                 (forall x, In x D -> mtime x <= before) /\
                 match rest with [] => True | m :: _ => before < mtime m \/ exists maxoff, maxoff <= moff m /\
                   (forall st1 m1, log_get_by_time H st before = Ok (st1, m1) -> maxoff = moff m1) end.
Proof.
  intros HI. unfold find_by_age.
  destruct (log_get_by_time H st before) as [[sg mg]|e] eqn:Eg.
  - destruct (log_get_by_time_live st before sg mg HI Eg) as (Hlive & HIg & HAg). cbn [bind].
    pose proof (abs_offsets_below_next st mg HI Hlive) as Hlt.
    apply (age_scan _ st before sg (moff mg)); [exact HIg|exact HAg|lia|]. intros st1 m1 E1. injection E1 as _ <-. reflexivity.
  - destruct (log_next_ok H st HI) as (s1 & En & HI1 & HA1 & _).
    destruct (classify e); try discriminate; rewrite En; cbn [bind];
      (apply (age_scan _ st before s1 (anext (abs st))); [exact HI1|exact HA1|apply Z.le_refl|discriminate]).
Qed.

End CompactProofs.
