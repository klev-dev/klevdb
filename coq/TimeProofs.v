(* TimeProofs.v — C10: GetByTime returns the first live message at or after the given time, for logs whose
   message times never decrease with offset (and are not before 1970: the rebuilt index starts its running
   maximum at 0 — known finding F11 otherwise). *)
From KV Require Import Base Model ListAux SearchProofs ReaderProofs Spec SpecFacts LogInv GetProofs
     KeyProofs.
From Coq Require Import ZifyBool ZifyNat.

Section TimeProofs.
Variable H : bytes -> Z.
Notation KInv := (KInv H).
Notation exact_items := (exact_items H).

Fixpoint tmono (lo : Z) (l : list msg) : Prop :=
  match l with [] => True | m :: r => lo <= mtime m /\ tmono (mtime m) r end.

Lemma tmono_weaken lo lo' l : lo' <= lo -> tmono lo l -> tmono lo' l.
Proof. destruct l; cbn; [trivial|]. intros Hle [H1 H2]. split; [lia|assumption]. Qed.

Lemma tmono_ge lo l x : tmono lo l -> In x l -> lo <= mtime x.
Proof.
  revert lo. induction l as [|m r IH]; intros lo Hm Hin; [contradiction|]. destruct Hm as [H1 H2].
  destruct Hin as [->|Hin]; [assumption|]. specialize (IH _ H2 Hin). lia.
Qed.

Lemma tmono_app lo a b : tmono lo (a ++ b) -> tmono lo a /\ (forall x y, In x a -> In y b -> mtime x <= mtime y) /\ tmono lo b.
Proof.
  revert lo. induction a as [|m r IH]; intros lo Hm; cbn [app] in *.
  - split; [exact I|]. split; [intros x y []|exact Hm].
  - destruct Hm as [H1 H2]. destruct (IH _ H2) as (A & B & C). split; [split; assumption|]. split.
    + intros x y [->|Hx] Hy; [|now apply B]. apply (tmono_ge _ _ _ H2). apply in_or_app. now right.
    + eapply tmono_weaken; [|exact C]. exact H1.
Qed.

Lemma tmono_seg lo l : tmono lo (all_recs l) -> forall s, In s l -> tmono lo (srecs s).
Proof.
  induction l as [|x l IH]; intros Hm s Hin; [contradiction|]. rewrite all_recs_cons in Hm.
  destruct (tmono_app _ _ _ Hm) as (A & _ & B). destruct Hin as [->|Hin]; [exact A|]. apply IH; assumption.
Qed.

Lemma tmono_le_last lo l d x : tmono lo l -> In x l -> mtime x <= mtime (last l d).
Proof.
  revert lo. induction l as [|m r IH]; intros lo Hm Hin; [contradiction|]. destruct Hm as [H1 H2].
  destruct r as [|y r'].
  - destruct Hin as [->|[]]. cbn. lia.
  - change (last (m :: y :: r') d) with (last (y :: r') d). destruct Hin as [->|Hin].
    + pose proof (tmono_ge _ _ _ H2 (last_in (y :: r') d ltac:(discriminate))). lia.
    + eapply IH; eassumption.
Qed.

Lemma sorted_le_cons x l : (forall y, In y l -> x <= y) -> sorted_le l -> sorted_le (x :: l).
Proof.
  intros Hx Hl i j a b Hi Hj Hij. pose proof (znth_some _ _ _ Hi) as Hir.
  destruct (Z.eq_dec i 0) as [->|Hi0].
  - rewrite znth_0 in Hi. injection Hi as <-. destruct (Z.eq_dec j 0) as [->|Hj0].
    + rewrite znth_0 in Hj. injection Hj as <-. lia.
    + rewrite znth_cons_pos in Hj by lia. exact (Hx b (znth_in _ _ _ Hj)).
  - rewrite znth_cons_pos in Hi, Hj by lia. apply (Hl (i - 1) (j - 1)); auto; lia.
Qed.

Lemma tmono_sorted lo l : tmono lo l -> sorted_le (map mtime l).
Proof.
  revert lo. induction l as [|m r IH]; intros lo Hm; [intros i j a b Hi; now rewrite znth_none in Hi by (cbn; lia)|].
  destruct Hm as [_ Hm]. apply sorted_le_cons; [|exact (IH _ Hm)].
  intros y Hy. apply in_map_iff in Hy. destruct Hy as (x & <- & Hx). exact (tmono_ge _ _ _ Hm Hx).
Qed.

Definition faithful (s : seg) (items : list item) : Prop := map its items = map mtime (srecs s).

Lemma derive_faithful p v : ptimes p = true -> forall recs cur ts0,
  tmono ts0 recs -> map its (derive_from H p v cur ts0 recs) = map mtime recs.
Proof.
  intros Hpt. induction recs as [|m r IH]; intros cur ts0 Hm; [reflexivity|]. destruct Hm as [H1 H2].
  cbn [derive_from map]. unfold new_item. cbn [its]. rewrite Hpt, (Z.max_l _ _ H1). f_equal. apply IH. exact H2.
Qed.

Lemma first_ge_time p v ts : forall recs cur ts0 it,
  map its (derive_from H p v cur ts0 recs) = map mtime recs ->
  find (fun it => ts <=? its it) (derive_from H p v cur ts0 recs) = Some it ->
  exists m, In (ipos it, m) (placed v cur recs) /\ find (fun m => ts <=? mtime m) recs = Some m.
Proof.
  induction recs as [|m r IH]; intros cur ts0 it Hf Hfind; [discriminate|].
  cbn [derive_from map placed find] in *. injection Hf as Hhd Htl. change (its (new_item H p m cur ts0) = mtime m) in Hhd.
  destruct (ts <=? its (new_item H p m cur ts0)) eqn:E; rewrite Hhd in E; rewrite E.
  - injection Hfind as <-. exists m. split; [now left|reflexivity].
  - destruct (IH _ _ it Htl Hfind) as (m' & Hin & Hf'). exists m'. split; [now right|exact Hf'].
Qed.

Theorem reader_get_by_time_spec p s items ts lo :
  exact_items p s items -> faithful s items -> tmono lo (srecs s) ->
  match srecs s with
  | [] => reader_get_by_time s items ts = Err ETimeEmpty
  | first :: _ =>
    let lst := last (srecs s) first in
    if ts <? mtime first then reader_get_by_time s items ts = Err ETimeBefore
    else if mtime lst <? ts then reader_get_by_time s items ts = Err ETimeAfter
    else exists m, find (fun m => ts <=? mtime m) (srecs s) = Some m /\ reader_get_by_time s items ts = Ok m
  end.
Proof.
  intros (ts0 & Hex) Hf Hm. unfold reader_get_by_time.
  assert (Hsorted : ts_sorted items) by (unfold ts_sorted; rewrite Hf; exact (tmono_sorted _ _ Hm)).
  pose proof (index_time_spec items ts Hsorted) as Hspec. unfold faithful in Hf.
  destruct (srecs s) as [|first rest] eqn:Er; [now rewrite Hex|].
  destruct items as [|i0 ir]; [discriminate|]. cbv zeta in *.
  (* the first and the last timestamp of the index are the first and the last message time *)
  assert (Hfirst : its i0 = mtime first) by (now injection Hf).
  assert (Hlast : its (last (i0 :: ir) i0) = mtime (last (first :: rest) first))
    by (now rewrite <- (last_map' its), <- (last_map' mtime), Hf, Hfirst).
  rewrite Hfirst, Hlast in Hspec.
  destruct (ts <? mtime first); [now rewrite Hspec|].
  destruct (mtime (last (first :: rest) first) <? ts); [now rewrite Hspec|].
  destruct Hspec as (it & Hfg & ->). cbn [bind]. unfold first_ts_ge in Hfg. rewrite Hex in Hfg, Hf.
  destruct (first_ge_time p (sver s) ts _ _ ts0 it Hf Hfg) as (m & Hin & Hfind).
  exists m. split; [exact Hfind|]. unfold read_at. rewrite Er. apply read_at_placed, Hin.
Qed.

(* the abstract walk, newest segment first *)
Inductive acand := AEmpty | ANone | AMsg (m : msg) | ABad.

Definition tpred (ts : Z) (m : msg) : bool := ts <=? mtime m.

Fixpoint tback (ts : Z) (rl : list (list msg)) (cand : acand) : acand :=
  match rl with
  | [] => cand
  | recs :: older =>
    match recs with
    | [] => tback ts older cand
    | first :: _ =>
      if ts <? mtime first then tback ts older (AMsg first)
      else if mtime (last recs first) <? ts then match cand with AEmpty => ANone | _ => cand end
      else match find (tpred ts) recs with
           | Some m => tback ts older (AMsg m)
           | None => cand
           end
    end
  end.

Definition final (ts : Z) (l : list msg) : acand :=
  match find (tpred ts) l with
  | Some m => AMsg m
  | None => match l with [] => AEmpty | _ => ANone end
  end.

Definition cand_ok (ts : Z) (cand : acand) (suffix : list msg) : Prop :=
  (cand = AEmpty /\ suffix = []) \/ exists m, cand = AMsg m /\ find (tpred ts) suffix = Some m.

Lemma tback_final ts lo : forall rl suffix cand,
  tmono lo (concat (rev rl) ++ suffix) -> cand_ok ts cand suffix ->
  tback ts rl cand = final ts (concat (rev rl) ++ suffix).
Proof.
  induction rl as [|recs older IH]; intros suffix cand Hm Hc.
  - cbn [rev concat app tback]. destruct Hc as [[-> ->]|(m & -> & Hf)]; unfold final; [reflexivity|now rewrite Hf].
  - cbn [rev] in *. rewrite concat_app in *. cbn [concat] in *. rewrite app_nil_r in *. rewrite <- app_assoc in *.
    cbn [tback]. destruct recs as [|first rest] eqn:Er.
    + cbn [app] in *. apply IH; assumption.
    + rewrite <- Er in *.
      destruct (tmono_app _ _ _ Hm) as (Hold & Hcross & Hrs). destruct (tmono_app _ _ _ Hrs) as (Hrecs & Hcross2 & _).
      assert (Hfirst_in : In first recs) by (rewrite Er; left; reflexivity).
      destruct (ts <? mtime first) eqn:E1.
      * apply IH; [exact Hm|]. right. exists first. split; [reflexivity|]. rewrite Er. cbn [app find]. unfold tpred at 1.
        destruct (ts <=? mtime first) eqn:E; [reflexivity|lia].
      * destruct (mtime (last recs first) <? ts) eqn:E2.
        -- (* everything up to and including this segment is earlier than ts *)
           assert (Hnone : find (tpred ts) (concat (rev older) ++ recs) = None).
           { apply find_none_all. intros x Hx. unfold tpred. apply in_app_or in Hx. destruct Hx as [Hx|Hx].
             - pose proof (Hcross x first Hx ltac:(apply in_or_app; left; exact Hfirst_in)).
               pose proof (tmono_le_last _ _ first first Hrecs Hfirst_in). lia.
             - pose proof (tmono_le_last _ _ first x Hrecs Hx). lia. }
           unfold final. rewrite app_assoc, find_app, Hnone.
           destruct Hc as [[-> ->]|(m & -> & Hf)].
           ++ cbn [find]. rewrite app_nil_r. destruct (concat (rev older) ++ recs) eqn:Ec; [|reflexivity].
              apply app_eq_nil in Ec. destruct Ec as [_ Ec]. rewrite Er in Ec. discriminate.
           ++ now rewrite Hf.
        -- assert (Hsome : exists m, find (tpred ts) recs = Some m).
           { destruct (find (tpred ts) recs) eqn:Ef; [eauto|]. exfalso.
             pose proof (find_none _ _ Ef (last recs first) (last_in recs first ltac:(rewrite Er; discriminate))) as Hn.
             unfold tpred in Hn. lia. }
           destruct Hsome as (m & Hfm). rewrite Hfm. apply IH; [exact Hm|]. right. exists m. split; [reflexivity|].
           rewrite find_app, Hfm. reflexivity.
Qed.

(* idx_sat faithful *)
Definition ts_faithful_seg (s : seg) : Prop :=
  forall iv items, sidx s = Some (iv, items) -> items = [] \/ faithful s items.

Definition TS (st : lstate) : Prop := Forall ts_faithful_seg (segs st).

Lemma with_index_ts c st i st1 s' items :
  KInv (cparams c) st -> TS st -> opened st = Some c -> ctimes c = true -> tmono 0 (all_recs (segs st)) ->
  with_index H c st i = Ok (st1, s', items) ->
  faithful s' items /\ TS st1.
Proof.
  intros (HI & _) HT Hc Hpt Hm. apply (with_index_sat H faithful); try assumption.
  - intros s iv _ E. unfold faithful. now rewrite E.
  - intros s Hs. apply derive_faithful; [exact Hpt|exact (tmono_seg 0 _ Hm s Hs)].
Qed.

(* the walk of log.GetByTime refines the abstract one *)
Definition abs_cand (rl : list (list msg)) (c : tcand) : acand :=
  match c with
  | TEmpty => AEmpty
  | TNone => ANone
  | TFound m => AMsg m
  | TBefore j => match znth rl j with Some (first :: _) => AMsg first | _ => ABad end
  end.

(* rl, the record lists of the segments, stays what it is while the index files change under the walk *)
Lemma get_by_time_back_spec c ts rl : forall n st cand,
  KInv (cparams c) st -> TS st -> opened st = Some c -> ctimes c = true -> tmono 0 (concat rl) ->
  map srecs (segs st) = rl -> (n <= length rl)%nat ->
  exists st1 cand1,
    get_by_time_back H c st ts n (Z.of_nat n - 1) cand = Ok (st1, cand1) /\
    KInv (cparams c) st1 /\ opened st1 = Some c /\ map srecs (segs st1) = rl /\
    abs_cand rl cand1 = tback ts (rev (firstn n rl)) (abs_cand rl cand).
Proof.
  induction n as [|n IH]; intros st cand HK HT Hc Hpt Hm Hrl Hn; [exists st, cand; auto|].
  cbn [get_by_time_back]. rewrite Nat2Z.inj_succ, Z.sub_1_r, Z.pred_succ.
  destruct (znth_under (segs st) n) as [s Hs]; [now rewrite <- (map_length srecs), Hrl|].
  destruct (with_index_step H c st _ s HK Hc Hs) as (st1 & s' & items & Hw & (Hr & _) & _ & Hex & HK1 & Hc1 & Hrl1 & _).
  assert (Hm0 : tmono 0 (all_recs (segs st))) by (unfold all_recs; now rewrite Hrl).
  destruct (with_index_ts c st _ st1 s' items HK HT Hc Hpt Hm0 Hw) as (Hfa & HT1).
  rewrite Hw. cbn [bind].
  assert (Hms : tmono 0 (srecs s')) by (rewrite Hr; exact (tmono_seg 0 _ Hm0 s (znth_in _ _ _ Hs))).
  pose proof (reader_get_by_time_spec (cparams c) s' items ts 0 Hex Hfa Hms) as Hrd. rewrite Hr in Hrd.
  assert (Hz : znth rl (Z.of_nat n) = Some (srecs s)) by (now rewrite <- Hrl, znth_map, Hs).
  rewrite (firstn_succ_znth _ _ _ Hz), rev_app_distr. cbn [rev app tback].
  assert (Hrl' : map srecs (segs st1) = rl) by congruence. apply Nat.lt_le_incl in Hn.
  destruct (srecs s) as [|first rest]; [rewrite Hrd; apply IH; assumption|].
  cbv zeta in Hrd. destruct (ts <? mtime first).
  - rewrite Hrd. replace (AMsg first) with (abs_cand rl (TBefore (Z.of_nat n))) by (cbn [abs_cand]; now rewrite Hz).
    apply IH; assumption.
  - destruct (mtime (last (first :: rest) first) <? ts).
    + rewrite Hrd. exists st1, (match cand with TEmpty => TNone | _ => cand end). repeat (split; [assumption || reflexivity|]).
      destruct cand as [| |m|j]; cbn [abs_cand]; try reflexivity. now destruct (znth rl j) as [[|f r]|].
    + destruct Hrd as (m & Hfind & ->). unfold tpred. rewrite Hfind. apply (IH st1 (TFound m)); assumption.
Qed.

Definition time_answer (a : acand) : obs msg :=
  match a with AMsg m => OOk m | AEmpty => OErr CInvalidOffset | ANone => OErr CNotFound | ABad => OErr CPanic end.

Lemma final_not_bad ts l : final ts l <> ABad.
Proof. unfold final. now destruct (find (tpred ts) l), l. Qed.

Lemma check_time_answer l nx ts : check_get_by_time (mkAlog l nx) true ts (time_answer (final ts l)) = true.
Proof.
  unfold check_get_by_time, final. cbn [negb live]. fold (tpred ts).
  destruct (find (tpred ts) l); [apply msg_eqb_refl|now destruct l].
Qed.

Theorem log_get_by_time_answer c st ts :
  KInv (cparams c) st -> TS st -> opened st = Some c -> ctimes c = true -> tmono 0 (live (abs st)) ->
  obs_get (log_get_by_time H st ts) = time_answer (final ts (live (abs st))).
Proof.
  intros HK HT Hc Hpt Hm. unfold log_get_by_time, get_cfg. rewrite Hc. cbn [bind]. rewrite Hpt. cbn [negb].
  change (zlen (segs st) - 1) with (Z.of_nat (length (segs st)) - 1).
  set (rl := map srecs (segs st)). change (live (abs st)) with (concat rl) in *.
  destruct (get_by_time_back_spec c ts rl (length (segs st)) st TEmpty HK HT Hc Hpt Hm eq_refl)
    as (st1 & cand1 & -> & HK1 & Hc1 & Hrl1 & A1); [unfold rl; now rewrite map_length|].
  cbn [bind]. cbn [abs_cand] in A1. replace (length (segs st)) with (length rl) in A1 by apply map_length.
  pose proof (tback_final ts 0 (rev rl) [] AEmpty) as Hfin. rewrite rev_involutive, app_nil_r in Hfin.
  rewrite firstn_all, (Hfin Hm (or_introl (conj eq_refl eq_refl))) in A1. rewrite <- A1. destruct cand1 as [| |m|j]; try reflexivity. cbn [abs_cand] in *.
  (* the answer is the oldest message of segment j *)
  destruct (znth rl j) as [[|first rest]|] eqn:Ej; try (now destruct (final_not_bad ts (concat rl))).
  rewrite <- Hrl1, znth_map in Ej. destruct (znth (segs st1) j) as [s1|] eqn:Hs1; [|discriminate]. injection Ej as Ej.
  destruct (with_index_step H c st1 j s1 HK1 Hc1 Hs1) as (st2 & s2 & items2 & -> & (Hr2 & _) & Hok & _).
  cbn [bind]. now rewrite (reader_get_oldest s2 items2 _ first rest Hok ltac:(congruence)).
Qed.

(* GetByTime on a log whose times never decrease with offset (and are not negative) and whose index timestamps
   are the message times: the live message with the smallest offset whose time is not before ts;
   ErrNotFound if every live message is earlier; ErrInvalidOffset (or NotFound) on a log without messages;
   ErrNoIndex without the time index *)
Theorem log_get_by_time_correct c st ts :
  KInv (cparams c) st -> TS st -> opened st = Some c -> tmono 0 (live (abs st)) ->
  check_get_by_time (abs st) (ctimes c) ts (obs_get (log_get_by_time H st ts)) = true.
Proof.
  intros HK HT Hc Hm. destruct (ctimes c) eqn:Hpt.
  - rewrite (log_get_by_time_answer c st ts HK HT Hc Hpt Hm). apply check_time_answer.
  - unfold log_get_by_time, get_cfg. rewrite Hc. cbn [bind]. now rewrite Hpt.
Qed.

End TimeProofs.
