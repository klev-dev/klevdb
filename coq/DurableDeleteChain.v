(* C06: Delete as a link of the chain of Durable.v.  "Every file but the two of the writing segment is entirely on
   stable storage" (sealed_durable), which Publish, Sync and Close maintain, is maintained by the complete program of
   a Delete as well - for the writing segment the log has after the call: the one the Delete created at NextOffset
   when it removed the newest message, otherwise the old one. *)
From KV Require Import Base Model ListAux LogInv DeleteProofs CrashDir Durable DurableProofs DurableDelete
     DurableDeleteProofs.
From Coq Require Import ZifyBool ZifyNat.

(* the segment files a Delete creates: those of a new, empty writing segment *)
Definition created (st : lstate) (offs : list Z) : list fname :=
  flat_map (fun o => match o with CreateLog b _ => [FLog b] | CreateIdx b => [FIdx b] | _ => [] end) (delete_prog st offs).

Lemma swap_stepB_created st offs v : Forall (stepB (created st offs)) (flat_map (tr v) (delete_prog st offs)).
Proof. exact (tr_stepB v (delete_prog st offs)). Qed.

(* the Delete is in the writing segment (decided as Model.log_delete decides) *)
Definition head_target (st : lstate) (offs : list Z) : bool :=
  match opened st with
  | None => false
  | Some c =>
    if cro c then false
    else match offs with
    | [] => false
    | _ =>
      if zmin_list offs <? 0 then false
      else match seg_get (bases (segs st)) (zmin_list offs) with
      | Err _ => false
      | Ok i => match znth (segs st) i with None => false | Some _ => is_last st i end
      end
    end
  end.

Lemma head_target_is_last st offs :
  head_target st offs = match target st offs with Some (_, i, _) => is_last st i | None => false end.
Proof. unfold head_target. now rewrite target_walk. Qed.

Lemma J_sealed E hb t : incl E [FLog hb; FIdx hb] -> Jl E t /\ Jt t -> sealed_durable hb t.
Proof.
  intros Hi HJ. apply sealed_dur_on. apply J_dur_on in HJ. revert HJ. apply dur_on_mono.
  intros f [A B]. right. intros Hin. apply Hi in Hin. cbn [In] in Hin. intuition congruence.
Qed.

Lemma all_Jl t : all_durable t -> Jl [] t.
Proof. intros Ha x Hx _ _. now apply Ha. Qed.

Lemma sealed_target_keeps st offs c i src t :
  target st offs = Some (c, i, src) -> is_last st i = false ->
  sealed_durable (head_base st) t -> sealed_durable (head_base st) (x_run t (delete_full st offs)) /\ created st offs = [].
Proof.
  intros T Hl HS. pose proof (delete_full_shape st offs) as Hs. pose proof (swap_creates st offs) as Hc.
  rewrite T in Hs, Hc. rewrite Hl in Hs. destruct Hs as (pa & -> & HA & HT). destruct Hc as [Hc|[Hc _]]; [|congruence].
  split; [|exact Hc]. cbn [app]. apply (J_sealed [FLog (head_base st); FIdx (head_base st)]); [apply incl_refl|].
  apply rewrite_then_swap; [exact HA|exact HT| |now apply sealed_Jl].
  pose proof (tr_stepB (cnewver c) (delete_prog st offs)) as HB. rewrite Hc in HB. revert HB. apply Forall_impl.
  intros o. apply stepB_mono, incl_nil_l.
Qed.

(* after writer.Sync every file is durable; afterwards only what the swap creates is not *)
Lemma head_target_durable st offs c i src t :
  target st offs = Some (c, i, src) -> is_last st i = true -> sealed_durable (head_base st) t ->
  Jl (created st offs) (x_run t (delete_full st offs)) /\ Jt (x_run t (delete_full st offs)).
Proof.
  intros T Hl HS. pose proof (delete_full_shape st offs) as Hs. rewrite T, Hl in Hs. destruct Hs as (pa & -> & HA & HT).
  rewrite <- (head_base_last st src (is_last_last st i src Hl (target_znth st offs c i src T))).
  rewrite x_run_app, x_run_XD. apply rewrite_then_swap; [exact HA|exact HT|apply tr_stepB|].
  eapply Jl_mono; [apply incl_nil_l|]. now apply all_Jl, sync_all_durable.
Qed.

(* created = []: the newest message survives.  Every file is durable then, also the rewrite that takes over as
   writing segment, whether it kept the segment's name or took a new one *)
Theorem head_delete_all_durable st offs t :
  sealed_durable (head_base st) t -> head_target st offs = true -> created st offs = [] ->
  all_durable (x_run t (delete_full st offs)).
Proof.
  intros HS Hh Hc. rewrite head_target_is_last in Hh. destruct (target st offs) as [[[c i] src]|] eqn:T; [|discriminate].
  pose proof (head_target_durable st offs c i src t T Hh HS) as HJ. rewrite Hc in HJ.
  apply all_dur_on. apply J_dur_on in HJ. revert HJ. apply dur_on_mono. intros f _. right. intros [].
Qed.

Section Step.
Variable H : bytes -> Z.

(* the writing segment of the state Model.log_delete returns *)
Lemma log_delete_head st offs st' r :
  log_delete H st offs = Ok (st', r) ->
  match target st offs with
  | None => st' = st
  | Some (c, i, src) =>
    if is_last st i
    then forall m, last_opt (filter (fun m => zmem (moff m) offs) (srecs src)) = Some m ->
           filter (fun m => negb (zmem (moff m) offs)) (srecs src) = [] \/ moff m = next_of st - 1 -> head_base st' = next_of st
    else head_base st' = head_base st
  end.
Proof.
  destruct r as [deleted size]. intros E.
  destruct (log_delete_inv H st offs st' deleted size E)
    as (c & _ & _ & [(_ & -> & _ & Hno)|(pre & src & post & Es & -> & _ & _ & _ & ->)]).
  { destruct (target st offs) as [[[c' i] src]|]; [|reflexivity]. fold (del_of offs (srecs src)). rewrite Hno.
    destruct (is_last st i); [discriminate|reflexivity]. }
  rewrite (proj1 (is_last_split st pre src post Es)). unfold head_base, next_of. cbn [segs]. rewrite Es.
  destruct post as [|q post].
  - (* writer.Delete: the new head, if there is one, is at NextOffset *)
    rewrite last_opt_app, app_nil_r. unfold delete_mid, del_of, surv_of. intros m Hm Hc. rewrite Hm.
    destruct (filter (fun m => negb (zmem (moff m) offs)) (srecs src)); [now rewrite last_opt_app|].
    destruct Hc as [Hc|Hc]; [discriminate|]. rewrite Hc, Z.eqb_refl. now rewrite last_opt_app2 by discriminate.
  - (* reader.Delete: the writing segment stays *)
    rewrite app_assoc, !last_opt_app2 by discriminate. now rewrite last_opt_cons_cons.
Qed.

(* sealed_durable, the invariant of Publish / Sync / Close (C06_sealed_segments_stay_durable), for the state the
   model's Delete returns *)
Theorem delete_step_sealed st offs st' r t :
  log_delete H st offs = Ok (st', r) ->
  sealed_durable (head_base st) t -> sealed_durable (head_base st') (x_run t (delete_full st offs)).
Proof.
  intros Hd HS. apply log_delete_head in Hd. pose proof (swap_creates st offs) as Hc.
  destruct (target st offs) as [[[c i] src]|] eqn:T.
  - destruct (is_last st i) eqn:Hl.
    + apply (J_sealed (created st offs)); [|now apply (head_target_durable st offs c i src)].
      unfold created. fold cr. destruct Hc as [->|(_ & -> & m & Hm & Hn)]; [apply incl_nil_l|].
      rewrite (Hd m Hm Hn). apply incl_refl.
    + rewrite Hd. now apply (sealed_target_keeps st offs c i src).
  - subst st'. pose proof (delete_full_shape st offs) as Hs. rewrite T in Hs. rewrite Hs. exact HS.
Qed.

End Step.
