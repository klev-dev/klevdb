(* Whole histories of API calls on one directory (C01, C02, C11, C17, C19).  Every state reachable from the empty
   directory is Good, and its abstract log is the fold of the abstract steps: a successful Publish appends exactly
   its messages, a successful Delete removes exactly what it reported, and nothing else (reads, index rebuilds,
   rollover, Close/Open in any mode, index removal, Migrate, Recover) changes the live messages or NextOffset. *)
From KV Require Import Base Model Spec LogInv PublishProofs DeleteProofs OpenProofs ReadsPreserve.

Section History.
Variable H : bytes -> Z.

Inductive hop :=
| HOpen (c : cfg) | HClose
| HPub (ms : list msg) | HDel (offs : list Z)
| HCons (off max : Z) | HGet (off : Z) | HGetK (k : bytes) | HConsK (k : bytes) (off max : Z)
| HGetT (ts : Z) | HNext | HStat
| HRmIndex (which : list Z) (all : bool) | HMigrate (p : params) (v : ver) | HRecoverDir (p : params).

Inductive hout :=
| RUnit (r : res unit) | RNum (r : res Z) | RDel (r : res (list msg * Z))
| RCons (r : res (Z * list msg)) | RMsg (r : res msg) | RStat (r : res (Z * Z * Z)).

Definition lift {A} (st : lstate) (r : res (lstate * A)) : lstate * res A :=
  match r with Ok (st', a) => (st', Ok a) | Err e => (st, Err e) end.

Definition lift0 (st : lstate) (r : res lstate) : lstate * res unit :=
  match r with Ok st' => (st', Ok tt) | Err e => (st, Err e) end.

Definition when_closed (st : lstate) (r : res lstate) : lstate * res unit :=
  match opened st with None => lift0 st r | Some _ => (st, Err ELocked) end.

(* log.Publish rolls the writing segment over, when that is due, BEFORE writer.Publish validates the batch: a batch
   refused with ErrTooBig leaves the new empty head behind - the state a Publish of no message produces *)
Definition rolled (st : lstate) : lstate :=
  match log_publish H st [] with Ok (st', _) => st' | Err _ => st end.

Definition pub_step (st : lstate) (ms : list msg) : lstate * res Z :=
  match log_publish H st ms with
  | Ok (st', n) => (st', Ok n)
  | Err e => (match e with ETooBig => rolled st | _ => st end, Err e)
  end.

Definition hstep (st : lstate) (op : hop) : lstate * hout :=
  match op with
  | HOpen c => let (s, r) := lift0 st (log_open H st c) in (s, RUnit r)
  | HClose => let (s, r) := lift0 st (log_close st) in (s, RUnit r)
  | HPub ms => let (s, r) := pub_step st ms in (s, RNum r)
  | HDel offs => let (s, r) := lift st (log_delete H st offs) in (s, RDel r)
  | HCons off max => let (s, r) := lift st (log_consume H st off max) in (s, RCons r)
  | HGet off => let (s, r) := lift st (log_get H st off) in (s, RMsg r)
  | HGetK k => let (s, r) := lift st (log_get_by_key H st k) in (s, RMsg r)
  | HConsK k off max => let (s, r) := lift st (log_consume_by_key H st k off max) in (s, RCons r)
  | HGetT ts => let (s, r) := lift st (log_get_by_time H st ts) in (s, RMsg r)
  | HNext => let (s, r) := lift st (log_next H st) in (s, RNum r)
  | HStat => let (s, r) := lift st (log_stat H st) in (s, RStat r)
  | HRmIndex which all =>
    let (s, r) := when_closed st (Ok (set_segs st (rm_index_at (segs st) 0 which all))) in (s, RUnit r)
  | HMigrate p v => let (s, r) := when_closed st (dir_migrate H p v st) in (s, RUnit r)
  | HRecoverDir p => let (s, r) := when_closed st (dir_recover H p st) in (s, RUnit r)
  end.

(* what a call may do to the log, given what it reported *)
Definition spec_step (a : alog) (op : hop) (o : hout) : alog :=
  match op, o with
  | HPub ms, RNum (Ok _) => spec_publish a ms
  | HDel _, RDel (Ok (deleted, _)) => mkAlog (remove_msgs (live a) deleted) (anext a)
  | _, _ => a
  end.

Definition Closed (st : lstate) : Prop := opened st = None /\ lvirt st = false /\ DirInv (segs st).
Definition Virt (st : lstate) : Prop :=
  lvirt st = true /\ (exists v, segs st = [mkSeg 0 v [] (Some (v, []))]) /\
  exists c, opened st = Some c /\ cro c = true.
Definition Good (st : lstate) : Prop := Closed st \/ Inv st \/ Virt st.

Lemma good_init : Good init_state.
Proof. left. split; [reflexivity|]. split; [reflexivity|]. split; [constructor|exact I]. Qed.

Lemma abs_nil st : segs st = [] -> abs st = empty_log.
Proof. intros Es. unfold abs, wnext. now rewrite Es. Qed.

Lemma alog_eta a : mkAlog (live a) (anext a) = a.
Proof. destruct a; reflexivity. Qed.

Lemma spec_publish_nil a : spec_publish a [] = a.
Proof. unfold spec_publish. cbn. rewrite app_nil_r, Z.add_0_r. destruct a; reflexivity. Qed.

Lemma good_closed st : Good st -> opened st = None -> Closed st.
Proof.
  intros [HC|[HI|HV]] Ho; [exact HC| |].
  - destruct (Inv_opened st HI) as (c & Hc). congruence.
  - destruct HV as (_ & _ & c & Hc & _). congruence.
Qed.

Lemma good_opened st c : Good st -> opened st = Some c -> Inv st \/ Virt st.
Proof. intros [(Ho & _)|[HI|HV]] Hc; [congruence|left; exact HI|right; exact HV]. Qed.

Lemma good_writable st c : Good st -> opened st = Some c -> cro c = false -> Inv st.
Proof.
  intros HG Hc Hro. destruct (good_opened st c HG Hc) as [HI|(_ & _ & c' & Hc' & Hro')]; [exact HI|]. congruence.
Qed.

(* the graph of hstep on Good states; hs_same is a failed call or a read through the virtual handle *)
Inductive hstep_to (st : lstate) : hop -> lstate -> hout -> Prop :=
| hs_same op o : (forall a, spec_step a op o = a) -> hstep_to st op st o
| hs_open c st' : Closed st -> log_open H st c = Ok st' -> hstep_to st (HOpen c) st' (RUnit (Ok tt))
| hs_close st' : log_close st = Ok st' -> hstep_to st HClose st' (RUnit (Ok tt))
| hs_pub ms c st' n :
    Inv st -> opened st = Some c -> log_publish H st ms = Ok (st', n) -> hstep_to st (HPub ms) st' (RNum (Ok n))
| hs_roll ms c st' n :
    Inv st -> opened st = Some c -> log_publish H st [] = Ok (st', n) -> hstep_to st (HPub ms) st' (RNum (Err ETooBig))
| hs_del offs c st' r :
    Inv st -> opened st = Some c -> log_delete H st offs = Ok (st', r) -> hstep_to st (HDel offs) st' (RDel (Ok r))
| hs_read op c st' o :
    (forall a, spec_step a op o = a) -> Inv st -> opened st = Some c -> rebuilds H c st st' -> hstep_to st op st' o
| hs_rm which all :
    Closed st -> hstep_to st (HRmIndex which all) (set_segs st (rm_index_at (segs st) 0 which all)) (RUnit (Ok tt))
| hs_migrate p v st' : Closed st -> dir_migrate H p v st = Ok st' -> hstep_to st (HMigrate p v) st' (RUnit (Ok tt))
| hs_recover p st' : Closed st -> dir_recover H p st = Ok st' -> hstep_to st (HRecoverDir p) st' (RUnit (Ok tt)).

Lemma hstep_graph_read {A} st op (wrap : res A -> hout) (call : res (lstate * A)) :
  Good st -> (forall a r, spec_step a op (wrap r) = a) ->
  (forall st' x, call = Ok (st', x) -> exists c, opened st = Some c /\ rebuilds H c st st') ->
  hstep_to st op (fst (let (s, r) := lift st call in (s, wrap r))) (snd (let (s, r) := lift st call in (s, wrap r))).
Proof.
  intros HG Hs Hcall. destruct call as [[st' x]|e]; cbn [lift fst snd]; [|apply hs_same; intros a; apply Hs].
  destruct (Hcall st' x eq_refl) as (c & Hc & Hb). destruct (good_opened st c HG Hc) as [HI|(Hv & _)].
  - exact (hs_read st op c st' _ (fun a => Hs a _) HI Hc Hb).
  - rewrite (proj2 (rebuilds_R H c st st' Hb) Hv). apply hs_same. intros a. apply Hs.
Qed.

Lemma hstep_graph st op : Good st -> hstep_to st op (fst (hstep st op)) (snd (hstep st op)).
Proof.
  intros HG.
  pose proof (fun c => good_writable st c HG) as Hw.
  destruct op; cbn [hstep].
  - destruct (log_open H st c) as [st'|e] eqn:E; cbn [lift0 fst snd]; [|apply hs_same; reflexivity].
    apply hs_open; [|exact E]. apply (good_closed st HG).
    destruct (opened st) as [c1|] eqn:Ho; [|reflexivity]. rewrite (log_open_locked H st c1 c Ho) in E. discriminate.
  - destruct (log_close st) as [st'|e] eqn:E; cbn [lift0 fst snd]; [|apply hs_same; reflexivity]. exact (hs_close st st' E).
  - unfold pub_step. destruct (log_publish H st ms) as [[st' n]|e] eqn:E; cbn [fst snd].
    + destruct (log_publish_inv H _ _ _ _ E) as (c & _ & _ & Hc & Hro & _). exact (hs_pub st ms c st' n (Hw c Hc Hro) Hc E).
    + destruct e; try (apply hs_same; reflexivity).
      unfold rolled. destruct (log_publish H st []) as [[st0 n0]|e0] eqn:E0; [|apply hs_same; reflexivity].
      destruct (log_publish_inv H _ _ _ _ E0) as (c & _ & _ & Hc & Hro & _). exact (hs_roll st ms c st0 n0 (Hw c Hc Hro) Hc E0).
  - destruct (log_delete H st offs) as [[st' [del sz]]|e] eqn:E; cbn [lift fst snd]; [|apply hs_same; reflexivity].
    destruct (log_delete_inv H _ _ _ _ _ E) as (c & Hc & Hro & _). exact (hs_del st offs c st' _ (Hw c Hc Hro) Hc E).
  - apply hstep_graph_read; [exact HG|reflexivity|intros st' x; apply log_consume_rebuilds].
  - apply hstep_graph_read; [exact HG|reflexivity|intros st' x; apply log_get_rebuilds].
  - apply hstep_graph_read; [exact HG|reflexivity|intros st' x; apply log_get_by_key_rebuilds].
  - apply hstep_graph_read; [exact HG|reflexivity|intros st' x; apply log_consume_by_key_rebuilds].
  - apply hstep_graph_read; [exact HG|reflexivity|intros st' x; apply log_get_by_time_rebuilds].
  - apply hstep_graph_read; [exact HG|reflexivity|intros st' x; apply log_next_rebuilds].
  - apply hstep_graph_read; [exact HG|reflexivity|intros st' x; apply log_stat_rebuilds].
  - unfold when_closed. destruct (opened st) eqn:Ho; cbn [lift0 fst snd]; [apply hs_same; reflexivity|].
    exact (hs_rm st which all (good_closed st HG Ho)).
  - unfold when_closed. destruct (opened st) eqn:Ho; [apply hs_same; reflexivity|].
    destruct (dir_migrate H p v st) as [st'|e] eqn:E; cbn [lift0 fst snd]; [|apply hs_same; reflexivity].
    exact (hs_migrate st p v st' (good_closed st HG Ho) E).
  - unfold when_closed. destruct (opened st) eqn:Ho; [apply hs_same; reflexivity|].
    destruct (dir_recover H p st) as [st'|e] eqn:E; cbn [lift0 fst snd]; [|apply hs_same; reflexivity].
    exact (hs_recover st p st' (good_closed st HG Ho) E).
Qed.

Lemma hstep_to_good st op st' o : hstep_to st op st' o -> Good st -> Good st' /\ abs st' = spec_step (abs st) op o.
Proof.
  intros Hs HG.
  destruct Hs as [op o Hs|c st' HC E|st' E|ms c st' n HI Hc E|ms c st' n HI Hc E|offs c st' [deleted size] HI Hc E
                  |op c st' o Hs HI Hc Hb|which all (Ho & Hv & HD)|p v st' (Ho & Hv & HD) E|p st' (Ho & Hv & HD) E];
    cbn [spec_step].
  - split; [exact HG|symmetry; apply Hs].
  - (* Open of the empty directory, read-only (the virtual handle) or read-write; of a directory with segments *)
    pose proof HC as (Ho & _). destruct (segs st) as [|s0 r0] eqn:Es.
    + rewrite (abs_nil st Es). destruct (cro c) eqn:Ero.
      * rewrite (log_open_virt H st c Ho Es Ero) in E. injection E as <-. split; [|reflexivity].
        right; right. split; [reflexivity|]. split; [eexists; reflexivity|]. eexists. split; [reflexivity|exact Ero].
      * destruct (log_open_fresh H st c Ho Es Ero) as (st2 & E2 & I2 & A2). rewrite E in E2. injection E2 as <-.
        split; [right; left; exact I2|exact A2].
    + destruct (log_open_ok H st c HC ltac:(rewrite Es; discriminate) st' E) as (I2 & A2). split; [right; left; exact I2|exact A2].
  - rewrite (log_close_inv st st' E). destruct HG as [(Ho & _)|[HI|(Hv & (v & Es) & _)]].
    + rewrite (log_close_closed st Ho) in E. discriminate.
    + rewrite (Inv_lvirt st HI). split; [|reflexivity]. left. split; [reflexivity|]. split; [reflexivity|].
      split; [exact (Inv_seg_inv st HI)|exact (Inv_chain st HI)].
    + rewrite Hv. split; [apply good_init|]. unfold abs, wnext, all_recs. rewrite Es. reflexivity.
  - destruct (log_publish_ok H st ms st' n HI E) as (I2 & A2 & _). split; [right; left; exact I2|exact A2].
  - destruct (log_publish_ok H st [] st' n HI E) as (I2 & A2 & _). split; [right; left; exact I2|]. rewrite A2. apply spec_publish_nil.
  - destruct (log_delete_ok H st offs st' deleted size c HI Hc E) as [(-> & -> & _)|(I2 & _ & An & Al & _)].
    + split; [right; left; assumption|]. rewrite remove_none. symmetry. apply alog_eta.
    + split; [right; left; assumption|]. rewrite <- Al, <- An. symmetry. apply alog_eta.
  - destruct (rebuilds_preserve H st st' HI (ex_intro _ c (conj Hc Hb))) as (I1 & A1 & _). split; [right; left; exact I1|]. rewrite Hs. exact A1.
  - destruct (rm_index_ok (segs st) 0 which all HD) as [HD2 A2].
    split; [left; split; [assumption|split; assumption]|]. exact A2.
  - destruct (dir_migrate_ok H p v st HD) as (st2 & E2 & HD2 & A2 & _ & Ho2 & Hv2). rewrite E in E2. injection E2 as <-.
    split; [left; split; [congruence|split; [congruence|assumption]]|]. exact A2.
  - destruct (dir_recover_ok H p st HD) as (st2 & E2 & HD2 & A2 & Ho2 & Hv2). rewrite E in E2. injection E2 as <-.
    split; [left; split; [congruence|split; [congruence|assumption]]|]. exact A2.
Qed.

Theorem hstep_good st op :
  Good st -> Good (fst (hstep st op)) /\ abs (fst (hstep st op)) = spec_step (abs st) op (snd (hstep st op)).
Proof. intros HG. exact (hstep_to_good st op _ _ (hstep_graph st op HG) HG). Qed.

(* also for a refused oversized batch, which may leave a rollover behind *)
Corollary failed_publish_publishes_nothing st ms e :
  Good st -> snd (hstep st (HPub ms)) = RNum (Err e) ->
  Good (fst (hstep st (HPub ms))) /\ abs (fst (hstep st (HPub ms))) = abs st.
Proof.
  intros HG He. destruct (hstep_good st (HPub ms) HG) as [G A]. split; [exact G|]. rewrite A, He. reflexivity.
Qed.

Fixpoint hrun (st : lstate) (ops : list hop) : lstate * list hout :=
  match ops with
  | [] => (st, [])
  | op :: r => let (s1, o) := hstep st op in let (s2, os) := hrun s1 r in (s2, o :: os)
  end.

Fixpoint spec_run (a : alog) (ops : list hop) (outs : list hout) : alog :=
  match ops, outs with
  | op :: r, o :: os => spec_run (spec_step a op o) r os
  | _, _ => a
  end.

Theorem history_refines ops : forall st,
  Good st -> Good (fst (hrun st ops)) /\ abs (fst (hrun st ops)) = spec_run (abs st) ops (snd (hrun st ops)).
Proof.
  induction ops as [|op r IH]; intros st HG; cbn [hrun]; [split; [assumption|reflexivity]|].
  destruct (hstep st op) as [s1 o] eqn:E1. pose proof (hstep_good st op HG) as [G1 A1]. rewrite E1 in G1, A1. cbn [fst snd] in G1, A1.
  destruct (hrun s1 r) as [s2 os] eqn:E2. pose proof (IH s1 G1) as [G2 A2]. rewrite E2 in G2, A2. cbn [fst snd] in *.
  split; [assumption|]. rewrite A2, A1. reflexivity.
Qed.

End History.

(* C02: offsets are never reused in the life of a directory.  assigned: the offsets the successful publishes of a
   history assigned, in order *)
Fixpoint assigned (a : alog) (ops : list hop) (outs : list hout) : list Z :=
  match ops, outs with
  | op :: r, o :: os =>
    (match op, o with HPub ms, RNum (Ok _) => seq_from (anext a) (length ms) | _, _ => [] end)
      ++ assigned (spec_step a op o) r os
  | _, _ => []
  end.

Fixpoint zinc_from (lo : Z) (l : list Z) : Prop :=
  match l with [] => True | x :: r => lo <= x /\ zinc_from (x + 1) r end.

Lemma zinc_from_weaken lo lo' l : lo' <= lo -> zinc_from lo l -> zinc_from lo' l.
Proof. destruct l as [|x r]; cbn; [trivial|]. intros Hle [H1 H2]. split; [lia|assumption]. Qed.

Lemma zinc_from_app lo n rest : zinc_from (lo + Z.of_nat n) rest -> zinc_from lo (seq_from lo n ++ rest).
Proof.
  revert lo. induction n as [|n IH]; intros lo Hr; cbn [seq_from app].
  - eapply zinc_from_weaken; [|exact Hr]. lia.
  - cbn [zinc_from]. split; [lia|]. apply IH. replace (lo + 1 + Z.of_nat n) with (lo + Z.of_nat (S n)) by lia. exact Hr.
Qed.

Lemma spec_step_next a op o : anext a <= anext (spec_step a op o).
Proof.
  destruct op; cbn [spec_step]; try apply Z.le_refl; destruct o as [r|r|r|r|r|r]; try apply Z.le_refl;
    destruct r as [x|e]; try apply Z.le_refl.
  - unfold spec_publish. cbn [anext]. lia.
  - destruct x. apply Z.le_refl.
Qed.

Theorem assigned_increasing ops : forall outs a, zinc_from (anext a) (assigned a ops outs).
Proof.
  induction ops as [|op r IH]; intros outs a; [exact I|]. destruct outs as [|o os]; [exact I|]. cbn [assigned].
  specialize (IH os (spec_step a op o)).
  destruct op; try (cbn [app]; eapply zinc_from_weaken; [apply spec_step_next|exact IH]).
  destruct o; try (cbn [app]; eapply zinc_from_weaken; [apply (spec_step_next a (HPub ms))|exact IH]).
  destruct r0 as [n|e]; [|cbn [app]; eapply zinc_from_weaken; [apply (spec_step_next a (HPub ms))|exact IH]].
  apply zinc_from_app. cbn [spec_step spec_publish anext] in IH. exact IH.
Qed.

Lemma zinc_from_lt lo l x : zinc_from lo l -> In x l -> lo <= x.
Proof.
  revert lo. induction l as [|y r IH]; intros lo Hz Hin; [contradiction|]. destruct Hz as [H1 H2].
  destruct Hin as [->|Hin]; [assumption|]. specialize (IH _ H2 Hin). lia.
Qed.

Theorem assigned_nodup ops outs a : NoDup (assigned a ops outs).
Proof.
  pose proof (assigned_increasing ops outs a) as Hz. revert Hz. generalize (anext a). generalize (assigned a ops outs).
  induction l as [|x r IH]; intros lo Hz; constructor.
  - destruct Hz as [_ H2]. intro Hin. pose proof (zinc_from_lt _ _ _ H2 Hin). lia.
  - destruct Hz as [_ H2]. eapply IH. exact H2.
Qed.

Lemma spec_run_next ops : forall outs a, anext a <= anext (spec_run a ops outs).
Proof.
  induction ops as [|op r IH]; intros outs a; [cbn; lia|]. destruct outs as [|o os]; [cbn; lia|]. cbn [spec_run].
  pose proof (spec_step_next a op o). specialize (IH os (spec_step a op o)). lia.
Qed.

Theorem assigned_below_next ops : forall outs a x, In x (assigned a ops outs) -> x < anext (spec_run a ops outs).
Proof.
  induction ops as [|op r IH]; intros outs a x Hin; [contradiction|]. destruct outs as [|o os]; [contradiction|].
  cbn [assigned spec_run] in *. apply in_app_or in Hin. destruct Hin as [Hin|Hin]; [|now apply IH].
  pose proof spec_run_next as Hmono.
  specialize (Hmono r os (spec_step a op o)).
  destruct op; try contradiction. destruct o; try contradiction. destruct r0; try contradiction.
  apply seq_from_in in Hin. unfold spec_step, spec_publish in Hmono. cbn [anext] in Hmono. unfold spec_step, spec_publish. lia.
Qed.

