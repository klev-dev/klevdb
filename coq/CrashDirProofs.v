(* CrashDirProofs.v — C05: what a process that dies after ANY prefix of a directory program of CrashDir.v leaves.
   For the in-place swap, the removal of an emptied segment, the creation of an empty head at NextOffset (rollover of
   Publish) and the two Deletes in the writing segment that begin with it: a well-formed directory whose content is
   the one before or the one after the call, every index file being absent or the derived one.  The swap of a REBASING
   delete (Rename then Remove) is not atomic in this sense: known finding F6. *)
From KV Require Import Base Model ListAux SegProofs ReaderProofs LogInv AbsFacts PublishProofs DeleteProofs
     OpenProofs CrashDir.
From Coq Require Import ZifyBool ZifyNat.

Section CrashDirProofs.
Variable H : bytes -> Z.

Lemma upd_seg_mid pre s post b f :
  sbase s = b -> (forall x, In x pre -> sbase x <> b) -> upd_seg (pre ++ s :: post) b f = pre ++ f s :: post.
Proof.
  intros Hb Hpre. induction pre as [|x pre IH]; cbn [app upd_seg].
  - rewrite Hb, Z.eqb_refl. reflexivity.
  - destruct (sbase x =? b) eqn:E; [exfalso; apply (Hpre x); [now left|lia]|]. f_equal. apply IH. intros y Hy. apply Hpre. now right.
Qed.

Lemma del_seg_mid pre s post b :
  sbase s = b -> (forall x, In x pre -> sbase x <> b) -> del_seg (pre ++ s :: post) b = pre ++ post.
Proof.
  intros Hb Hpre. induction pre as [|x pre IH]; cbn [app del_seg].
  - rewrite Hb, Z.eqb_refl. reflexivity.
  - destruct (sbase x =? b) eqn:E; [exfalso; apply (Hpre x); [now left|lia]|]. f_equal. apply IH. intros y Hy. apply Hpre. now right.
Qed.

Lemma has_seg_mid pre s post b : sbase s = b -> has_seg (pre ++ s :: post) b = true.
Proof. intros Hb. unfold has_seg. apply existsb_exists. exists s. split; [apply in_or_app; right; now left|lia]. Qed.

Lemma ins_seg_mid y a b :
  (forall q, In q a -> sbase q < sbase y) -> (forall q, In q b -> sbase y < sbase q) -> ins_seg y (a ++ b) = a ++ y :: b.
Proof.
  intros Ha Hb. induction a as [|x a IH]; cbn [app ins_seg].
  - destruct b as [|q b]; [reflexivity|]. cbn [ins_seg]. pose proof (Hb q (or_introl eq_refl)). destruct (sbase y <? sbase q) eqn:E; [reflexivity|lia].
  - pose proof (Ha x (or_introl eq_refl)). destruct (sbase y <? sbase x) eqn:E; [lia|]. f_equal. apply IH. intros q Hq. apply Ha. now right.
Qed.

Section AtSegment.
Variables (pre post : list seg) (b : Z).
Hypothesis Hpre : forall x, In x pre -> sbase x <> b.

Lemma exec_remove_index s tmp : sbase s = b ->
  fs_exec (mkDir (pre ++ s :: post) tmp) (RemoveIndex b) = mkDir (pre ++ set_idx s None :: post) tmp.
Proof. intros Hb. cbn [fs_exec dsegs dtmp]. now rewrite (upd_seg_mid pre s post b _ Hb Hpre). Qed.

Lemma exec_remove_log s tmp : sbase s = b -> fs_exec (mkDir (pre ++ s :: post) tmp) (RemoveLog b) = mkDir (pre ++ post) tmp.
Proof. intros Hb. cbn [fs_exec dsegs dtmp]. now rewrite (del_seg_mid pre s post b Hb Hpre). Qed.

Lemma exec_rename_log s recs ti : sbase s = b ->
  fs_exec (mkDir (pre ++ s :: post) (mkTmp (Some recs) ti)) (RenameTmpLog b) =
  mkDir (pre ++ mkSeg (sbase s) (sver s) recs (sidx s) :: post) (mkTmp None ti).
Proof.
  intros Hb. cbn [fs_exec dsegs dtmp tlog tidx]. now rewrite (has_seg_mid pre s post b Hb), (upd_seg_mid pre s post b _ Hb Hpre).
Qed.

Lemma exec_rename_index s tl ix : sbase s = b ->
  fs_exec (mkDir (pre ++ s :: post) (mkTmp tl (Some ix))) (RenameTmpIndex b) =
  mkDir (pre ++ set_idx s (Some ix) :: post) (mkTmp tl None).
Proof. intros Hb. cbn [fs_exec dsegs dtmp tlog tidx]. now rewrite (upd_seg_mid pre s post b _ Hb Hpre). Qed.

Lemma exec_create_idx s tmp : sbase s = b ->
  fs_exec (mkDir (pre ++ s :: post) tmp) (CreateIdx b) = mkDir (pre ++ set_idx s (Some (sver s, [])) :: post) tmp.
Proof. intros Hb. cbn [fs_exec dsegs dtmp]. now rewrite (upd_seg_mid pre s post b _ Hb Hpre). Qed.

End AtSegment.

Lemma exec_create_log l b v tmp : (forall q, In q l -> sbase q < b) ->
  fs_exec (mkDir l tmp) (CreateLog b v) = mkDir (l ++ [mkSeg b v [] None]) tmp.
Proof.
  intros Hl. pose proof (ins_seg_mid (mkSeg b v [] None) l [] Hl (fun q (F : In q []) => match F with end)) as E.
  rewrite app_nil_r in E. cbn [fs_exec dsegs dtmp]. now rewrite E.
Qed.

Lemma exec_rename_log_new a b n recs ti :
  (forall q, In q a -> sbase q < n) -> (forall q, In q b -> n < sbase q) ->
  fs_exec (mkDir (a ++ b) (mkTmp (Some recs) ti)) (RenameTmpLog n) = mkDir (a ++ mkSeg n V2 recs None :: b) (mkTmp None ti).
Proof.
  intros Ha Hb. cbn [fs_exec dsegs dtmp tlog tidx].
  assert (Hno : has_seg (a ++ b) n = false).
  { unfold has_seg. apply not_true_is_false. intros E. apply existsb_exists in E. destruct E as (q & Hq & Eq).
    apply in_app_or in Hq. destruct Hq as [Hq|Hq]; [specialize (Ha q Hq)|specialize (Hb q Hq)]; lia. }
  rewrite Hno. now rewrite (ins_seg_mid (mkSeg n V2 recs None) a b Ha Hb).
Qed.

(* P holds of every crash image of prog run from d; in this form the result for a concatenation comes from those of its
   parts (at_every_step_app) *)
Fixpoint at_every_step (P : ddir -> Prop) (d : ddir) (prog : list fsop) : Prop :=
  P d /\ match prog with [] => True | o :: r => at_every_step P (fs_exec d o) r end.

Lemma at_every_step_firstn P : forall prog d, at_every_step P d prog <-> forall k, P (fs_run d (firstn k prog)).
Proof.
  induction prog as [|o r IH]; intros d; cbn [at_every_step]; split.
  - intros [H0 _] k. now rewrite firstn_nil.
  - intros Hk. split; [exact (Hk O)|exact I].
  - intros [H0 Hr] [|k]; [exact H0|]. apply (proj1 (IH _) Hr k).
  - intros Hk. split; [exact (Hk O)|]. apply IH. intros k. exact (Hk (S k)).
Qed.

Lemma at_every_step_app P a b : forall d, at_every_step P d a -> at_every_step P (fs_run d a) b -> at_every_step P d (a ++ b).
Proof.
  induction a as [|o a IH]; intros d Ha Hb; [exact Hb|]. destruct Ha as [H0 Ha]. split; [exact H0|]. now apply IH.
Qed.

Lemma at_every_step_impl (P Q : ddir -> Prop) : (forall d, P d -> Q d) ->
  forall prog d, at_every_step P d prog -> at_every_step Q d prog.
Proof. intros HPQ. induction prog as [|o r IH]; intros d [H0 Hr]; (split; [now apply HPQ|]); [exact I|now apply IH]. Qed.

(* what a crash may leave of a call that turns the directory before into after: a directory that Open accepts
   (reopen_after_crash) and that holds the messages and NextOffset of one of the two *)
Definition crash_ok (before after : list seg) (d : ddir) : Prop :=
  DirInv (dsegs d) /\ (abs_dir (dsegs d) = abs_dir before \/ abs_dir (dsegs d) = abs_dir after).

Lemma crash_ok_abs before after before' after' d :
  abs_dir before = abs_dir before' -> abs_dir after = abs_dir after' -> crash_ok before after d -> crash_ok before' after' d.
Proof. unfold crash_ok. now intros -> ->. Qed.

Lemma no_index_ok pre s post :
  DirInv (pre ++ s :: post) ->
  DirInv (pre ++ set_idx s None :: post) /\ abs_dir (pre ++ set_idx s None :: post) = abs_dir (pre ++ s :: post).
Proof. intros HD. apply (same_recs_ok pre s _ post HD); [split; reflexivity|]. intros iv items E. discriminate. Qed.

(* the in-place swap (the first message of the segment survives) *)
Section Override.
Variables (pre post : list seg) (s : seg) (keep : list msg) (p : params).
Hypothesis HD : DirInv (pre ++ s :: post).
Hypothesis Hkeep_sub : forall m, In m keep -> In m (srecs s).
Hypothesis Hkeep_sorted : recs_sorted keep.
Hypothesis Hkeep_first : match keep with [] => False | m :: _ => moff m = sbase s end.

Let ix := (sver s, derive H p (sver s) keep).
Let d0 := mkDir (pre ++ s :: post) (mkTmp (Some keep) (Some ix)).
Let after := pre ++ mkSeg (sbase s) (sver s) keep (Some ix) :: post.

(* the log file changes in the second step, under a directory without the index file before and after it *)
Lemma override_steps : at_every_step (crash_ok (pre ++ s :: post) after) d0 (prog_override (sbase s)).
Proof.
  pose proof HD as [HF Hch]. destruct (Forall_split _ _ _ _ HF) as (HFpre & Hs & HFpost).
  pose proof (chain_pre_bases pre s post Hch) as Hpre.
  destruct (no_index_ok pre s post HD) as [D1 A1].
  assert (D2 : DirInv (pre ++ mkSeg (sbase s) (sver s) keep None :: post)).
  { split.
    - apply Forall_app. split; [exact HFpre|]. constructor; [|exact HFpost].
      destruct Hs as (_ & Hnn & _ & _ & Hb). refine (conj Hkeep_sorted (conj _ (conj _ (conj _ Hb)))).
      + intros m Hm. apply Hnn, Hkeep_sub, Hm.
      + unfold first_is_base. cbn [srecs sbase]. destruct keep; [exact I|exact Hkeep_first].
      + intros iv items E. discriminate.
    - apply (chain_ok_replace pre s post _ Hch); cbn [sbase srecs]; [apply Z.le_refl| |].
      + intros _. split; [destruct keep; [contradiction|discriminate]|exact Hkeep_sub].
      + intros q Hq. apply chain_ok_app_r in Hch. exact (chain_base_lt s post q Hch Hq). }
  destruct (same_recs_ok pre _ (mkSeg (sbase s) (sver s) keep (Some ix)) post D2) as [D3 A3]; [split; reflexivity| |].
  { intros iv items E. injection E as <- <-. right. apply derive_from_match. }
  cbn [at_every_step prog_override]. unfold d0. split; [split; [exact HD|now left]|].
  rewrite (exec_remove_index pre post (sbase s) Hpre s _ eq_refl). split; [split; [exact D1|left; exact A1]|].
  rewrite (exec_rename_log pre post (sbase s) Hpre (set_idx s None) keep _ eq_refl). cbn [set_idx sbase sver sidx].
  split; [split; [exact D2|right; symmetry; exact A3]|].
  rewrite (exec_rename_index pre post (sbase s) Hpre (mkSeg (sbase s) (sver s) keep None) None ix eq_refl). split; [split; [exact D3|now right]|exact I].
Qed.

Theorem override_crash_safe k : crash_ok (pre ++ s :: post) after (fs_run d0 (firstn k (prog_override (sbase s)))).
Proof. revert k. apply at_every_step_firstn, override_steps. Qed.

End Override.

Lemma remove_steps pre s post tmp : DirInv (pre ++ s :: post) ->
  at_every_step (crash_ok (pre ++ s :: post) (pre ++ post)) (mkDir (pre ++ s :: post) tmp) [RemoveIndex (sbase s); RemoveLog (sbase s)].
Proof.
  intros HD. pose proof HD as [HF Hch]. pose proof (chain_pre_bases pre s post Hch) as Hpre.
  destruct (no_index_ok pre s post HD) as [D1 A1].
  cbn [at_every_step]. split; [split; [exact HD|now left]|].
  rewrite (exec_remove_index pre post (sbase s) Hpre s _ eq_refl). split; [split; [exact D1|left; exact A1]|].
  rewrite (exec_remove_log pre post (sbase s) Hpre (set_idx s None) _ eq_refl). split; [|exact I]. split; [|now right].
  destruct (Forall_split _ _ _ _ HF) as (HFpre & _ & HFpost).
  split; [apply Forall_app; split; assumption|exact (chain_ok_remove pre s post Hch)].
Qed.

(* an emptied segment that is not the last one (for the last one Delete runs prog_head_all; the proof has no use for
   the premise) *)
Theorem drop_crash_safe pre post s tmp : DirInv (pre ++ s :: post) -> post <> [] ->
  forall k, crash_ok (pre ++ s :: post) (pre ++ post) (fs_run (mkDir (pre ++ s :: post) tmp) (firstn k (prog_drop (sbase s)))).
Proof.
  intros HD _. apply at_every_step_firstn. split; [split; [exact HD|now left]|]. exact (remove_steps pre s post (mkTmp None None) HD).
Qed.

(* the swap of a REBASING delete (the first message of the segment is deleted): known finding F6 *)
Section Rebase.
Variables (pre post : list seg) (s : seg) (keep : list msg) (ix : ver * list item) (b' : Z).
Hypothesis HD : DirInv (pre ++ s :: post).
Hypothesis Hb' : sbase s < b'.
Hypothesis Hpost_b : forall q, In q post -> b' < sbase q.
Hypothesis Hkeep_ne : keep <> [].
Hypothesis Hdel_ne : (length keep < length (srecs s))%nat.

Let d0 := mkDir (pre ++ s :: post) (mkTmp (Some keep) (Some ix)).

(* after the first step of the swap (and until the old log file is removed, three steps later) the directory
   holds the old segment AND the rewritten one: every survivor is there twice *)
Theorem rebase_crash_overlap :
  dsegs (fs_run d0 (firstn 1 (prog_rebase (sbase s) b'))) = pre ++ s :: mkSeg b' V2 keep None :: post /\
  all_recs (dsegs (fs_run d0 (firstn 1 (prog_rebase (sbase s) b')))) = all_recs pre ++ srecs s ++ keep ++ all_recs post /\
  length (all_recs (dsegs (fs_run d0 (firstn 1 (prog_rebase (sbase s) b'))))) <> length (all_recs (pre ++ s :: post)) /\
  length (all_recs (dsegs (fs_run d0 (firstn 1 (prog_rebase (sbase s) b'))))) <> length (all_recs (pre ++ mkSeg b' V2 keep (Some ix) :: post)).
Proof.
  pose proof HD as [HF Hch].
  assert (Hlt : forall q, In q (pre ++ [s]) -> sbase q < b').
  { intros q Hq. apply in_app_or in Hq. destruct Hq as [Hq|[<-|[]]]; [|exact Hb']. pose proof (chain_pre_base_lt pre s post Hch q Hq). lia. }
  assert (Hst : dsegs (fs_run d0 (firstn 1 (prog_rebase (sbase s) b'))) = pre ++ s :: mkSeg b' V2 keep None :: post).
  { unfold d0. cbn [firstn prog_rebase fs_run fold_left]. rewrite (app_assoc pre [s] post : pre ++ s :: post = _).
    rewrite (exec_rename_log_new (pre ++ [s]) post b' keep (Some ix) Hlt Hpost_b). cbn [dsegs]. now rewrite <- app_assoc. }
  revert Hst. generalize (dsegs (fs_run d0 (firstn 1 (prog_rebase (sbase s) b')))). intros l ->. split; [reflexivity|].
  split; [now rewrite all_recs_app, !all_recs_cons|]. rewrite !all_recs_app, !all_recs_cons, !app_length. cbn [srecs].
  destruct keep; [contradiction|]. cbn [length] in *. clear - Hdel_ne. split; lia.
Qed.

End Rebase.

(* the creation of a new empty head at NextOffset (rollover of Publish; the first steps of a Delete that removes the
   newest message of the writing segment): the log file appears first, then its index file; neither changes what the
   directory holds *)
Section CreateHead.
Variables (pre : list seg) (hd : seg) (v : ver) (tmp : tmpfiles).
Hypothesis HD : DirInv (pre ++ [hd]).
Hypothesis Hne : srecs hd <> [].

Let n := recs_next hd.
Let d0 := mkDir (pre ++ [hd]) tmp.

Lemma bases_lt_next q : In q (pre ++ [hd]) -> sbase q < n.
Proof.
  destruct HD as [HF Hch]. apply Forall_app_last in HF. destruct HF as [_ Hhd].
  assert (Hh : sbase hd < n).
  { destruct (srecs hd) as [|m0 r0] eqn:Er; [congruence|]. assert (Hm0 : In m0 (srecs hd)) by (rewrite Er; now left).
    pose proof (seg_offsets_ge_base hd m0 Hhd Hm0). pose proof (recs_lt_next hd m0 Hhd Hm0). unfold n. lia. }
  intros Hq. apply in_app_or in Hq. destruct Hq as [Hq|[<-|[]]]; [|exact Hh].
  pose proof (chain_pre_base_lt pre hd [] Hch q Hq). lia.
Qed.

Lemma log_created :
  DirInv ((pre ++ [hd]) ++ [mkSeg n v [] None]) /\ abs_dir ((pre ++ [hd]) ++ [mkSeg n v [] None]) = abs_dir (pre ++ [hd]).
Proof.
  pose proof HD as [HF Hch]. pose proof (proj2 (proj1 (Forall_app_last _ _ _) HF)) as Hhd. split; [split|].
  - apply Forall_app_last. split; [exact HF|]. split; [apply (inc_recs_sorted []); exact I|]. split; [intros m []|].
    split; [exact I|]. split; [intros iv items E; discriminate|now apply recs_next_nonneg].
  - apply chain_ok_snoc; [exact Hch| | |exact Hne]; cbn [sbase].
    + apply bases_lt_next, in_or_app. right. now left.
    + intros m Hm. now apply recs_lt_next.
  - unfold abs_dir. rewrite !last_opt_app. f_equal.
    rewrite all_recs_app. unfold all_recs at 2. cbn. now rewrite app_nil_r.
Qed.

Lemma head_created :
  DirInv (pre ++ [hd; mkSeg n v [] (Some (v, []))]) /\ abs_dir (pre ++ [hd; mkSeg n v [] (Some (v, []))]) = abs_dir (pre ++ [hd]).
Proof.
  destruct log_created as [D1 A1]. change (pre ++ [hd; ?x]) with (pre ++ [hd] ++ [x]). rewrite app_assoc, <- A1.
  apply (same_recs_ok _ _ _ [] D1); [split; reflexivity|]. intros iv items E. injection E as _ <-. now left.
Qed.

Lemma create_head_execs tmp0 :
  fs_exec (mkDir (pre ++ [hd]) tmp0) (CreateLog n v) = mkDir ((pre ++ [hd]) ++ [mkSeg n v [] None]) tmp0 /\
  fs_exec (mkDir ((pre ++ [hd]) ++ [mkSeg n v [] None]) tmp0) (CreateIdx n) = mkDir (pre ++ [hd; mkSeg n v [] (Some (v, []))]) tmp0.
Proof.
  split; [apply exec_create_log, bases_lt_next|].
  assert (Hpre : forall x, In x (pre ++ [hd]) -> sbase x <> n) by (intros x Hx; pose proof (bases_lt_next x Hx); lia).
  rewrite (exec_create_idx (pre ++ [hd]) [] n Hpre (mkSeg n v [] None) tmp0 eq_refl). now rewrite <- app_assoc.
Qed.

Lemma create_head_run tmp0 :
  fs_run (mkDir (pre ++ [hd]) tmp0) (create_head n v) = mkDir (pre ++ [hd; mkSeg n v [] (Some (v, []))]) tmp0.
Proof. destruct (create_head_execs tmp0) as [E1 E2]. cbn [fs_run create_head fold_left]. now rewrite E1, E2. Qed.

Lemma create_head_steps tmp0 :
  at_every_step (fun d => DirInv (dsegs d) /\ abs_dir (dsegs d) = abs_dir (pre ++ [hd])) (mkDir (pre ++ [hd]) tmp0) (create_head n v).
Proof.
  destruct (create_head_execs tmp0) as [E1 E2]. cbn [at_every_step create_head]. rewrite E1, E2.
  split; [split; [exact HD|reflexivity]|]. split; [exact log_created|]. split; [exact head_created|exact I].
Qed.

Theorem create_head_crash_safe k :
  let d := fs_run d0 (firstn k (create_head n v)) in
  DirInv (dsegs d) /\ abs_dir (dsegs d) = abs_dir (pre ++ [hd]).
Proof.
  cbv zeta. revert k. apply (at_every_step_firstn (fun d => DirInv (dsegs d) /\ abs_dir (dsegs d) = abs_dir (pre ++ [hd]))).
  apply create_head_steps.
Qed.

End CreateHead.

(* Publish: the only directory steps are those of a rollover, and they are exactly create_head at NextOffset *)
Theorem publish_prog_crash_safe c st k :
  Inv st -> opened st = Some c ->
  let d := fs_run (mkDir (segs st) (mkTmp None None)) (firstn k (publish_prog st)) in
  DirInv (dsegs d) /\ abs_dir (dsegs d) = abs st.
Proof.
  intros HI Hc. cbv zeta. unfold publish_prog. rewrite Hc.
  assert (Hnone : DirInv (dsegs (fs_run (mkDir (segs st) (mkTmp None None)) (firstn k []))) /\
                  abs_dir (dsegs (fs_run (mkDir (segs st) (mkTmp None None)) (firstn k []))) = abs st).
  { rewrite firstn_nil. split; [split; [apply Inv_seg_inv|apply Inv_chain]; exact HI|reflexivity]. }
  destruct (cro c) eqn:Hro; [exact Hnone|].
  destruct (Inv_writer st c HI Hc Hro) as (pre & hd & Es & HF & Hch & Hhd). rewrite abs_dir_abs, Es in *. rewrite last_opt_app.
  destruct (needs_rollover c hd) eqn:Er; [|exact Hnone].
  rewrite (head_idx_next hd (proj2 (proj1 (Forall_app_last _ _ _) HF)) Hhd).
  apply (create_head_crash_safe pre hd (cnewver c) (mkTmp None None) (conj HF Hch)).
  unfold needs_rollover in Er. destruct (srecs hd); [rewrite andb_false_r in Er|]; discriminate.
Qed.

(* Delete in the WRITING segment when the newest message goes (repair F8: the new empty head is created at
   NextOffset before the old files are swapped or removed, so NextOffset survives every crash point) *)
Section HeadDelete.
Variables (pre : list seg) (hd : seg) (v : ver).
Hypothesis HD : DirInv (pre ++ [hd]).
Hypothesis Hne : srecs hd <> [].

Let n := recs_next hd.
Let nh := mkSeg n v [] (Some (v, [])).

(* the new head first: until it is complete the log is the old one *)
Lemma create_head_first tmp after :
  at_every_step (crash_ok (pre ++ [hd]) after) (mkDir (pre ++ [hd]) tmp) (create_head n v).
Proof.
  eapply at_every_step_impl; [|exact (create_head_steps pre hd v HD Hne tmp)]. intros d [A B]. split; [exact A|left; exact B].
Qed.

(* every message of the writing segment is deleted *)
Theorem head_all_crash_safe tmp k :
  crash_ok (pre ++ [hd]) (pre ++ [nh]) (fs_run (mkDir (pre ++ [hd]) tmp) (firstn k (prog_head_all (sbase hd) n v))).
Proof.
  destruct (head_created pre hd v HD Hne) as [HDn Habs]. revert k. apply at_every_step_firstn.
  split; [split; [exact HD|now left]|].
  change (fs_exec (mkDir (pre ++ [hd]) tmp) RemoveTmp) with (mkDir (pre ++ [hd]) (mkTmp None None)).
  apply at_every_step_app; [apply create_head_first|]. rewrite (create_head_run pre hd v HD Hne).
  eapply at_every_step_impl; [|exact (remove_steps pre hd [nh] (mkTmp None None) HDn)].
  intros d. apply crash_ok_abs; [exact Habs|reflexivity].
Qed.

(* the first message of the writing segment survives, the newest does not: new head, then the in-place swap *)
Section TailOverride.
Variables (keep : list msg) (p : params).
Hypothesis Hkeep_sub : forall m, In m keep -> In m (srecs hd).
Hypothesis Hkeep_sorted : recs_sorted keep.
Hypothesis Hkeep_first : match keep with [] => False | m :: _ => moff m = sbase hd end.

Let ix := (sver hd, derive H p (sver hd) keep).

Theorem head_tail_override_crash_safe k :
  crash_ok (pre ++ [hd]) (pre ++ mkSeg (sbase hd) (sver hd) keep (Some ix) :: [nh])
           (fs_run (mkDir (pre ++ [hd]) (mkTmp (Some keep) (Some ix))) (firstn k (prog_head_tail_override (sbase hd) n v))).
Proof.
  destruct (head_created pre hd v HD Hne) as [HDn Habs]. revert k. apply at_every_step_firstn.
  apply at_every_step_app; [apply create_head_first|]. rewrite (create_head_run pre hd v HD Hne).
  eapply at_every_step_impl; [|exact (override_steps pre [nh] hd keep p HDn Hkeep_sub Hkeep_sorted Hkeep_first)].
  intros d. apply crash_ok_abs; [exact Habs|reflexivity].
Qed.

End TailOverride.
End HeadDelete.

(* after the crash: Open with Recover (or any other mode) of what the in-place swap or the removal left *)
Theorem reopen_after_crash before after d c0 st' :
  crash_ok before after d -> dsegs d <> [] ->
  log_open H (mkState (dsegs d) 0 None false) c0 = Ok st' ->
  Inv st' /\ (abs st' = abs_dir before \/ abs st' = abs_dir after).
Proof.
  intros [HDd Habs] Hne Ho.
  assert (Hcd : closed_dir (mkState (dsegs d) 0 None false)) by (split; [reflexivity|split; [reflexivity|exact HDd]]).
  destruct (log_open_ok H _ c0 Hcd Hne st' Ho) as (I' & A'). split; [exact I'|]. cbn [segs] in A'. rewrite A'. exact Habs.
Qed.

End CrashDirProofs.
