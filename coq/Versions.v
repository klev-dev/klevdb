(* C17: which format version every segment has after a Publish or a Delete. *)
From KV Require Import Base Model ListAux LogInv PublishProofs DeleteProofs.
From Coq Require Import ZifyBool ZifyNat.

Section Versions.
Variable H : bytes -> Z.

(* cnewver is NewSegmentsVersion (the new empty head, and the rewritten segment without KeepRewriteVersion); with
   KeepRewriteVersion the rewritten segment has the version of the segment it was rewritten from *)
Theorem delete_versions st offs st' deleted size c :
  Inv st -> opened st = Some c ->
  log_delete H st offs = Ok (st', (deleted, size)) ->
  forall s', In s' (segs st') ->
    In s' (segs st) \/ sver s' = cnewver c \/
    (ckeeprw c = true /\ exists src, In src (segs st) /\ sver s' = sver src).
Proof.
  intros _ Hc E s' Hs'.
  destruct (log_delete_inv H st offs st' deleted size E)
    as (c' & Hc' & _ & [(_ & -> & _)|(pre & src & post & Es & _ & _ & _ & _ & ->)]); [now left|].
  rewrite Hc in Hc'. injection Hc' as <-.
  cbn [segs] in Hs'. rewrite Es. apply in_app_or in Hs'. destruct Hs' as [Hs'|Hs']; [left; apply in_or_app; now left|].
  apply in_app_or in Hs'. destruct Hs' as [Hs'|Hs']; [|left; apply in_or_app; right; now right].
  right. destruct (delete_mid_in H c src offs post s' Hs') as [-> | ->]; [|now left]. cbn [sver rewritten].
  destruct (ckeeprw c); [right; split; [reflexivity|]; exists src; split; [apply in_elt|reflexivity]|now left].
Qed.

(* only a rollover brings in a segment, in NewSegmentsVersion *)
Theorem publish_versions st ms st' n c hd :
  opened st = Some c -> last_opt (segs st) = Some hd ->
  log_publish H st ms = Ok (st', n) ->
  exists pre hd', segs st' = pre ++ [hd'] /\
    sver hd' = (if needs_rollover c hd then cnewver c else sver hd) /\
    (forall s, In s pre -> In s (segs st)).
Proof.
  intros Hc Ehd E. destruct (log_publish_inv H st ms st' n E) as (c' & pre & hd' & Hc' & Hro & Es & Hsz).
  rewrite Hc in Hc'. injection Hc' as <-. rewrite Es, last_opt_app in Ehd. injection Ehd as ->.
  rewrite (log_publish_eq H st c ms pre hd Hc Hro Es Hsz) in E. cbn zeta in E. injection E as <- _.
  cbn [segs]. eexists _, _. split; [reflexivity|]. rewrite Es.
  destruct (needs_rollover c hd); (split; [reflexivity|]); intros s Hs; [exact Hs|apply in_or_app; now left].
Qed.

End Versions.
