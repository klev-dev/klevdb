(* TrimProofs.v — C15: what FindByOffset / FindByCount / FindBySize (trim_offset.go, trim_count.go, trim_size.go)
   select, for every state and every way Consume cuts the log into batches.  The loop over batches is one pass of
   `inner` over a prefix of the live messages, over all of them when the bound is NextOffset. *)
From KV Require Import Base Model Helpers ListAux SearchProofs ReaderProofs Spec LogInv AbsFacts
     ReadsPreserve KeyProofs ScanProofs.
From Coq Require Import ZifyBool ZifyNat.

Section Inner.
Context {A : Type}.
Variable step : A -> msg -> A * brk.

Lemma inner_app a b : forall acc,
  inner step acc (a ++ b) = match inner step acc a with (x, Continue) => inner step x b | r => r end.
Proof.
  induction a as [|m a IH]; intros acc; [reflexivity|]. cbn [app inner].
  destruct (step acc m) as [x [ | | ]]; [apply IH|reflexivity|reflexivity].
Qed.

Lemma inner_continue (P : A -> Prop) :
  (forall a m a', step a m = (a', Continue) -> P a') ->
  forall l acc a, P acc -> inner step acc l = (a, Continue) -> P a.
Proof.
  intros HP. induction l as [|m l IH]; intros acc a Hacc E; cbn [inner] in E.
  - injection E as <-. exact Hacc.
  - destruct (step acc m) as [x [ | | ]] eqn:Es; [|discriminate|discriminate]. exact (IH x a (HP _ _ _ Es) E).
Qed.

Lemma inner_break : forall l acc a b,
  inner step acc l = (a, b) -> b <> Continue -> exists a0 m, In m l /\ step a0 m = (a, b).
Proof.
  induction l as [|m l IH]; intros acc a b E Hb; cbn [inner] in E.
  - injection E as _ <-. congruence.
  - destruct (step acc m) as [x [ | | ]] eqn:Es.
    + destruct (IH x a b E Hb) as (a0 & m' & Hin & Hs). exists a0, m'. split; [now right|exact Hs].
    + injection E as <- <-. exists acc, m. split; [now left|exact Es].
    + injection E as <- <-. exists acc, m. split; [now left|exact Es].
Qed.

End Inner.

Section TrimProofs.
Variable H : bytes -> Z.

Lemma live_count_len st : live_count st = length (live (abs st)).
Proof.
  unfold live_count, abs, all_recs. cbn [live]. induction (segs st) as [|s l IH]; [reflexivity|].
  cbn [fold_right map concat]. rewrite app_length, IH. reflexivity.
Qed.

Section Scan.
Context {A : Type}.
Variables (cond : A -> bool) (step : A -> msg -> A * brk) (maxoff : Z).

(* the loop test is re-evaluated only between batches: it sees nothing new after a step that continues, and
   fails after one that breaks the inner loop - then BreakInner ends the scan like BreakOuter *)
Hypothesis Hcont : forall a m a', step a m = (a', Continue) -> cond a' = true.
Hypothesis Hbrk : forall a m a', step a m = (a', BreakInner) -> cond a' = false \/ maxoff <= moff m.

Definition scan_post (L : list msg) (acc0 a : A) : Prop :=
  exists D rest, L = D ++ rest /\ a = fst (inner step acc0 D) /\
    (snd (inner step acc0 D) <> Continue \/ match rest with [] => True | m :: _ => maxoff <= moff m end).

Theorem scan_prefix st acc0 :
  Inv st -> maxoff <= anext (abs st) -> cond acc0 = true ->
  exists st' a, scan_loop H (scan_fuel st) st OffsetOldest maxoff acc0 cond step = Ok (st', a) /\
    scan_post (live (abs st)) acc0 a /\ Inv st' /\ abs st' = abs st /\ opened st' = opened st.
Proof.
  intros HI Hmax Hc0. set (L := live (abs st)).
  pose proof (live_inc st HI) as Hinc. fold L in Hinc.
  destruct (scan_rule H (fun acc done => inner step acc0 done = (acc, Continue) /\ cond acc = true)
              (scan_post L acc0) cond step maxoff L) with (fuel := scan_fuel st) (st := st) (acc := acc0)
    as (st' & a & Es & Hpost & HI' & HA').
  - intros acc done chunk rest [Hd Hc] HL _ _.
    assert (Hdc : inner step acc0 (done ++ chunk) = inner step acc chunk) by (rewrite inner_app, Hd; reflexivity).
    destruct (inner step acc chunk) as [a b] eqn:Ein.
    assert (Hp : b <> Continue -> scan_post L acc0 a).
    { intros Hb. exists (done ++ chunk), rest. rewrite Hdc. split; [rewrite HL; apply app_assoc|]. split; [reflexivity|]. left. exact Hb. }
    destruct b.
    + split; [exact Hdc|]. exact (inner_continue step (fun x => cond x = true) Hcont chunk acc a Hc Ein).
    + split; [apply Hp; discriminate|].
      destruct (inner_break step chunk acc a BreakInner Ein ltac:(discriminate)) as (a0 & m & Hm & Hs).
      destruct (Hbrk a0 m a Hs) as [Hf|Hge]; [left; exact Hf|right]. intros x Hx.
      (* m lies in the batch, so not behind its last message x *)
      rewrite HL in Hinc. destruct (inc_app_inv _ _ Hinc) as (_ & Hi2 & _). destruct (inc_app_inv _ _ Hi2) as (Hic & _).
      pose proof (inc_le_last chunk x m Hic Hx Hm) as Hlast. clear -Hge Hlast. lia.
    + apply Hp. discriminate.
  - intros acc done rest [Hd Hc] HL [Hf|Hrest]; [congruence|].
    exists done, rest. rewrite Hd. split; [exact HL|]. split; [reflexivity|]. right.
    destruct rest as [|m r]; [exact I|]. apply Hrest. now left.
  - exact HI.
  - reflexivity.
  - exact Hmax.
  - unfold scan_fuel. rewrite live_count_len, Nat.add_comm. apply Nat.le_refl.
  - split; [reflexivity|exact Hc0].
  - destruct (scan_loop_opened H step cond _ _ _ _ _ _ _ HI Es) as (Ho & _).
    exists st', a. split; [exact Es|]. split; [exact Hpost|]. split; [exact HI'|]. split; [exact HA'|exact Ho].
Qed.

End Scan.

Corollary scan_whole {A} (cond : A -> bool) step st acc0 :
  (forall a m a', step a m = (a', Continue) -> cond a' = true) ->
  (forall a m a', step a m = (a', BreakInner) -> cond a' = false) ->
  Inv st -> cond acc0 = true ->
  exists st', scan_loop H (scan_fuel st) st OffsetOldest (anext (abs st)) acc0 cond step =
              Ok (st', fst (inner step acc0 (live (abs st)))) /\
    Inv st' /\ abs st' = abs st /\ opened st' = opened st.
Proof.
  intros Hcont Hbrk HI Hc0.
  destruct (scan_prefix cond step (anext (abs st)) Hcont (fun a m a' E => or_introl (Hbrk a m a' E)) st acc0 HI (Z.le_refl _) Hc0)
    as (st' & a & Es & (D & rest & HL & -> & Hend) & Hst).
  exists st'. split; [|exact Hst]. rewrite Es, HL, inner_app.
  destruct (inner step acc0 D) as [x b]. cbn [fst snd] in *. destruct rest as [|m r].
  - destruct b; reflexivity.
  - destruct Hend as [Hb|Hm]; [destruct b; [congruence|reflexivity|reflexivity]|].
    pose proof (abs_offsets_below_next st m HI ltac:(rewrite HL; apply in_elt)). lia.
Qed.

Lemma take_while_app_stop {B} (f : B -> bool) a b : forallb f a = false -> take_while f (a ++ b) = take_while f a.
Proof.
  induction a as [|x a IH]; intros Hf; [discriminate|]. cbn in *. destruct (f x); [|reflexivity]. cbn in Hf. now rewrite IH.
Qed.

Lemma take_while_split {B} (f : B -> bool) : forall l, exists t r,
  l = t ++ r /\ take_while f l = t /\ forallb f t = true /\ match r with [] => True | x :: _ => f x = false end.
Proof.
  induction l as [|x l IH]; [exists [], []; repeat split|]. destruct IH as (t & r & -> & Ht & Hf & Hr). cbn [take_while].
  destruct (f x) eqn:E.
  - exists (x :: t), r. rewrite Ht. cbn [forallb]. rewrite E, Hf. repeat split. exact Hr.
  - exists [], (x :: t ++ r). repeat split. exact E.
Qed.

(* the loops of FindByOffset, FindByAge, FindUpdates, FindDeletes: collect until a message satisfies stop *)
Section StopScan.
Context {A : Type}.
Variables (stop : msg -> bool) (g : A -> msg -> A).

Definition stop_step (b : brk) (acc : A) (m : msg) : A * brk :=
  if stop m then (acc, b) else (g acc m, Continue).

Definition go_on (m : msg) : bool := negb (stop m).

Lemma stop_inner b : b <> Continue -> forall chunk acc,
  inner (stop_step b) acc chunk =
  (fold_left g (take_while go_on chunk) acc, if forallb go_on chunk then Continue else b).
Proof.
  intros Hb. induction chunk as [|m r IH]; intros acc; [reflexivity|]. cbn [inner take_while forallb]. unfold stop_step at 1, go_on at 1 3.
  destruct (stop m); cbn [negb andb fold_left]; [destruct b; [congruence|reflexivity|reflexivity]|]. apply IH.
Qed.

Definition stop_post (L : list msg) (maxoff : Z) (acc0 : A) (a : A) : Prop :=
  exists D rest, L = D ++ rest /\ a = fold_left g D acc0 /\ forallb go_on D = true /\
    match rest with [] => True | m :: _ => stop m = true \/ maxoff <= moff m end.

(* an inner break ends the scan when every stopping message is at or beyond maxoff *)
Theorem scan_stop b st maxoff acc0 :
  b <> Continue -> (b = BreakInner -> forall m, stop m = true -> maxoff <= moff m) ->
  Inv st -> maxoff <= anext (abs st) ->
  exists st' a, scan_loop H (scan_fuel st) st OffsetOldest maxoff acc0 (fun _ => true) (stop_step b) = Ok (st', a) /\
    stop_post (live (abs st)) maxoff acc0 a /\ Inv st' /\ abs st' = abs st /\ opened st' = opened st.
Proof.
  intros Hb Hin HI Hmax.
  destruct (scan_prefix (fun _ => true) (stop_step b) maxoff) with (st := st) (acc0 := acc0)
    as (st' & a & Es & (D & rest & HL & Ha & Hend) & Hst); [reflexivity| |exact HI|exact Hmax|reflexivity|].
  - intros a m a'. unfold stop_step. destruct (stop m) eqn:Em; [|discriminate]. intros E. injection E as _ ->. right. now apply Hin.
  - exists st', a. split; [exact Es|]. split; [|exact Hst]. rewrite (stop_inner b Hb) in Ha, Hend. cbn [fst snd] in Ha, Hend.
    destruct (take_while_split go_on D) as (t & r & -> & Ht & Hft & Hr). rewrite Ht in Ha.
    exists t, (r ++ rest). split; [rewrite HL; symmetry; apply app_assoc|]. split; [exact Ha|]. split; [exact Hft|].
    destruct r as [|x r]; cbn [app].
    + rewrite app_nil_r, Hft in Hend. destruct Hend as [Hc|Hm]; [congruence|]. destruct rest; [exact I|now right].
    + left. unfold go_on in Hr. now destruct (stop x).
Qed.

Corollary scan_stop_full st acc0 :
  Inv st ->
  exists st', scan_loop H (scan_fuel st) st OffsetOldest (anext (abs st)) acc0 (fun _ => true) (stop_step BreakOuter) =
              Ok (st', fold_left g (take_while go_on (live (abs st))) acc0) /\
    Inv st' /\ abs st' = abs st /\ opened st' = opened st.
Proof.
  intros HI. destruct (scan_whole (fun _ => true) (stop_step BreakOuter) st acc0) as (st' & Es & Hst); [reflexivity| |exact HI|reflexivity|].
  - intros a m a'. unfold stop_step. destruct (stop m); discriminate.
  - exists st'. split; [|exact Hst]. rewrite Es, stop_inner by discriminate. reflexivity.
Qed.

End StopScan.

(* the loops of FindByCount, FindBySize: spend a budget *)
Section Budget.
Variables (ok over : Z -> bool) (w : msg -> Z).

(* the message that exhausts the budget is taken too *)
Fixpoint fbud (b : Z) (l : list msg) : list Z :=
  match l with
  | [] => []
  | m :: r => let b' := b - w m in if ok b' then moff m :: fbud b' r else [moff m]
  end.

(* the loop condition is ok; the body tests its complement in its own words (`<= 0` against `0 <`, `< sz` against
   `sz <=`): with over for that test the lambdas of Helpers.v are bud_step up to conversion *)
Hypothesis Hover : forall b, over b = negb (ok b).

Definition bud_step (a : list Z * Z) (m : msg) : (list Z * Z) * brk :=
  let a' := (fst a ++ [moff m], snd a - w m) in
  if over (snd a') then (a', BreakInner) else (a', Continue).

Lemma inner_bud : forall l offs b, fst (fst (inner bud_step (offs, b) l)) = offs ++ fbud b l.
Proof.
  induction l as [|m r IH]; intros offs b; cbn [inner fbud]; [symmetry; apply app_nil_r|].
  unfold bud_step at 1. cbn [fst snd]. rewrite Hover. destruct (ok (b - w m)); cbn [negb].
  - rewrite IH, <- app_assoc. reflexivity.
  - reflexivity.
Qed.

Theorem scan_budget st b0 :
  Inv st -> ok b0 = true ->
  exists st' a, scan_loop H (scan_fuel st) st OffsetOldest (anext (abs st)) ([], b0) (fun a => ok (snd a)) bud_step = Ok (st', a) /\
    fst a = fbud b0 (live (abs st)) /\ Inv st' /\ abs st' = abs st /\ opened st' = opened st.
Proof.
  intros HI Hok.
  destruct (scan_whole (fun a => ok (snd a)) bud_step st ([], b0)) as (st' & Es & Hst); [| |exact HI|exact Hok|].
  - intros a m a'. unfold bud_step. cbn [fst snd]. rewrite Hover. destruct (ok (snd a - w m)) eqn:E; [|discriminate].
    intros Ea. injection Ea as <-. exact E.
  - intros a m a'. unfold bud_step. cbn [fst snd]. rewrite Hover. destruct (ok (snd a - w m)) eqn:E; [discriminate|].
    intros Ea. injection Ea as <-. exact E.
  - exists st', (fst (inner bud_step ([], b0) (live (abs st)))). split; [exact Es|]. split; [apply inner_bud|exact Hst].
Qed.

End Budget.

Lemma log_next_ok st : Inv st ->
  exists st1, log_next H st = Ok (st1, anext (abs st)) /\ Inv st1 /\ abs st1 = abs st /\ opened st1 = opened st.
Proof.
  intros HI. destruct (Inv_opened st HI) as (c & Hc).
  destruct (last_opt (segs st)) as [hd|] eqn:Ehd; [|apply last_opt_none in Ehd; destruct (Inv_segs_ne _ HI Ehd)].
  assert (Hlast_znth : znth (segs st) (zlen (segs st) - 1) = Some hd) by (now rewrite <- last_opt_znth).
  destruct (with_index_ok H c st _ hd HI Hc Hlast_znth) as (st1 & s' & items & Hw & Hok & Hsh & Hst & HI1 & _).
  unfold log_next, get_cfg. rewrite Hc. cbn [bind]. rewrite Hw. cbn [bind].
  exists st1. rewrite (idx_next_recs s' items Hok), (same_shape_recs_next _ _ Hsh).
  assert (Hanext : anext (abs st) = recs_next hd) by (unfold abs, wnext; cbn; now rewrite Ehd).
  rewrite Hanext. split; [reflexivity|]. split; [exact HI1|]. split; [now apply st_shape_abs|]. destruct Hst as (_ & Ho & _). congruence.
Qed.

Lemma with_index_items c st i st1 s' items :
  Inv st -> opened st = Some c -> with_index H c st i = Ok (st1, s', items) -> head_items s' = items.
Proof.
  intros HI Hc Hw. apply (with_index_sat H (fun s its => head_items s = its) c st i st1 s' items); try assumption.
  - intros s iv E _. unfold head_items. now rewrite E.
  - reflexivity.
  - apply Forall_forall. intros s _ iv its E. right. unfold head_items. now rewrite E.
Qed.

Lemma stat_loop_count c : forall n st i sg cnt sz,
  Inv st -> opened st = Some c -> 0 <= i -> (Z.to_nat i + n <= length (segs st))%nat ->
  exists st' sg' sz', stat_loop H c st n i (sg, cnt, sz) = Ok (st', (sg', cnt + zlen (all_recs (firstn n (skipn (Z.to_nat i) (segs st)))), sz')) /\
                      Inv st' /\ abs st' = abs st /\ opened st' = Some c.
Proof.
  induction n as [|n IH]; intros st i sg cnt sz HI Hc Hi Hn.
  - exists st, sg, sz. cbn [stat_loop firstn]. unfold all_recs. cbn. rewrite Z.add_0_r. split; [reflexivity|]. split; [exact HI|]. split; [reflexivity|exact Hc].
  - cbn [stat_loop].
    destruct (znth_in_range (segs st) i ltac:(clear -Hi Hn; unfold zlen; lia)) as [s Hs].
    destruct (with_index_ok H c st i s HI Hc Hs) as (st1 & s' & items & Hw & Hok & Hsh & Hst & HI1 & Hs1).
    rewrite Hw. cbn [bind].
    pose proof Hst as (HF2 & Ho1 & _). assert (Hc1 : opened st1 = Some c) by congruence.
    assert (Hcnt : match sidx s' with Some ix => zlen (snd ix) | None => 0 end = zlen (srecs s)).
    { pose proof (with_index_items c st i st1 s' items HI Hc Hw) as Hit.
      destruct Hok as ((Hoff & _) & _). destruct Hsh as (<- & _).
      transitivity (zlen (head_items s')); [unfold head_items; destruct (sidx s') as [[iv its]|]; reflexivity|].
      rewrite Hit. unfold zlen. now rewrite <- (map_length ioff items), Hoff, map_length. }
    rewrite Hcnt.
    destruct (IH st1 (i + 1) (sg + 1) (cnt + zlen (srecs s)) (sz + seg_log_size s' + match sidx s' with Some ix => idx_size (cparams c) ix | None => 0 end) HI1 Hc1 ltac:(clear -Hi; lia))
      as (st2 & sg2 & sz2 & E2 & HI2 & HA2 & Hc2).
    { rewrite <- (Forall2_len _ _ _ HF2). clear -Hi Hn. lia. }
    rewrite E2. exists st2, sg2, sz2. split.
    + f_equal. f_equal. f_equal. f_equal.
      rewrite (skipn_znth _ _ _ Hs). cbn [firstn]. rewrite all_recs_cons, zlen_app.
      assert (Hsame : all_recs (firstn n (skipn (Z.to_nat (i + 1)) (segs st1))) = all_recs (firstn n (skipn (Z.to_nat (i + 1)) (segs st)))).
      { apply all_recs_shape. apply Forall2_firstn. apply Forall2_skipn. exact HF2. }
      rewrite Hsame. symmetry. apply Z.add_assoc.
    + split; [exact HI2|]. split; [rewrite HA2; now apply st_shape_abs|exact Hc2].
Qed.

Theorem log_stat_count st :
  Inv st ->
  exists st' sg sz, log_stat H st = Ok (st', (sg, zlen (live (abs st)), sz)) /\ Inv st' /\ abs st' = abs st.
Proof.
  intros HI. destruct (Inv_opened st HI) as (c & Hc). unfold log_stat, get_cfg. rewrite Hc, (Inv_lvirt _ HI). cbn [bind].
  destruct (stat_loop_count c (length (segs st)) st 0 0 0 0 HI Hc ltac:(lia) ltac:(cbn; lia)) as (st' & sg' & sz' & E & HI' & HA' & _).
  rewrite E. exists st', sg', sz'. split; [|split; assumption]. f_equal. f_equal. f_equal. f_equal.
  cbn [Z.to_nat skipn]. rewrite firstn_all. reflexivity.
Qed.

Definition collect (acc : list Z) (m : msg) : list Z := acc ++ [moff m].

Lemma fold_collect D : forall acc, fold_left collect D acc = acc ++ map moff D.
Proof. induction D as [|x D IH]; intros acc; cbn; [now rewrite app_nil_r|]. rewrite IH. unfold collect. now rewrite <- app_assoc. Qed.

Lemma filter_lt_split L before' done rest :
  L = done ++ rest -> (forall x, In x done -> moff x < before') -> (forall x, In x rest -> before' <= moff x) ->
  filter (fun m => moff m <? before') L = done.
Proof.
  intros -> Hd Hr. rewrite filter_app. rewrite (filter_all_true _ done) by (intros x Hx; specialize (Hd x Hx); lia).
  rewrite (filter_all_false _ rest) by (intros x Hx; specialize (Hr x Hx); lia). apply app_nil_r.
Qed.

Theorem find_by_offset_ok st before :
  Inv st ->
  exists st1, find_by_offset H st before =
    Ok (st1, if before =? OffsetOldest then []
             else if before =? OffsetNewest then map moff (live (abs st))
             else map moff (filter (fun m => moff m <? before) (live (abs st)))) /\
    Inv st1 /\ abs st1 = abs st /\ opened st1 = opened st.
Proof.
  intros HI. unfold find_by_offset. destruct (before =? OffsetOldest); [exists st; split; [reflexivity|split; [exact HI|split; reflexivity]]|].
  destruct (log_next_ok st HI) as (st1 & En & HI1 & HA1 & Ho1). rewrite En. cbn [bind].
  set (nxt := anext (abs st)) in *.
  set (before' := if before =? OffsetNewest then nxt else before).
  set (maxoff := if before =? OffsetNewest then nxt else Z.min nxt before).
  assert (Hmb : maxoff <= before' /\ maxoff <= nxt /\ forall o, o < nxt -> maxoff <= o -> before' <= o)
    by (unfold maxoff, before'; destruct (before =? OffsetNewest); (split; [lia|split; [lia|intros o; lia]])).
  destruct (scan_stop (fun m => before' <=? moff m) collect BreakInner st1 maxoff [])
    as (st2 & a & Es & (D & rest & HL & Ha & HD & Hrest) & HI2 & HA2 & Ho2); [discriminate| |exact HI1|rewrite HA1; exact (proj1 (proj2 Hmb))|].
  { intros _ m Hm. apply Z.leb_le in Hm. exact (Z.le_trans _ _ _ (proj1 Hmb) Hm). }
  unfold stop_step, collect in Es. rewrite Es. cbn [bind]. exists st2.
  split; [|split; [exact HI2|split; [exact (eq_trans HA2 HA1)|exact (eq_trans Ho2 Ho1)]]].
  f_equal. f_equal. rewrite Ha, fold_collect. cbn [app]. rewrite HA1 in HL.
  pose proof (live_inc st HI) as Hinc. pose proof (fun x => abs_offsets_below_next st x HI) as Hrange. fold nxt in Hrange.
  assert (HF : filter (fun m => moff m <? before') (live (abs st)) = D).
  { apply (filter_lt_split _ before' D rest HL).
    - intros x Hx. rewrite forallb_forall in HD. specialize (HD x Hx). apply negb_true_iff, Z.leb_gt in HD. exact HD.
    - destruct rest as [|m r]; [intros x []|]. rewrite HL in Hinc, Hrange.
      assert (Hm : before' <= moff m).
      { destruct Hrest as [Hs|Hm]; [now apply Z.leb_le|]. apply (proj2 (proj2 Hmb)); [|exact Hm]. apply Hrange, in_elt. }
      destruct (inc_app_inv _ _ Hinc) as (_ & [Hm_lt _] & _). intros x [->|Hx]; [exact Hm|].
      exact (Z.le_trans _ _ _ Hm (Z.lt_le_incl _ _ (Hm_lt x Hx))). }
  unfold before' in HF. destruct (before =? OffsetNewest); [|now rewrite HF].
  rewrite <- HF. f_equal. apply filter_all_true. intros x Hx. apply Z.ltb_lt, Hrange, Hx.
Qed.

Theorem find_by_offset_spec st before :
  Inv st ->
  exists st1, find_by_offset H st before =
    Ok (st1, if before =? OffsetOldest then []
             else if before =? OffsetNewest then map moff (live (abs st))
             else map moff (filter (fun m => moff m <? before) (live (abs st)))) /\
    Inv st1 /\ abs st1 = abs st.
Proof. intros HI. destruct (find_by_offset_ok st before HI) as (st1 & E & HI1 & HA1 & _). exists st1. split; [exact E|split; assumption]. Qed.

Lemma fbud_count : forall l k, 1 <= k -> fbud (fun b => 0 <? b) (fun _ => 1) k l = firstn (Z.to_nat k) (map moff l).
Proof.
  induction l as [|m r IH]; intros k Hk; cbn [fbud map]; [now rewrite firstn_nil|].
  replace (Z.to_nat k) with (S (Z.to_nat (k - 1))) by lia. cbn [firstn].
  destruct (0 <? k - 1) eqn:E; [f_equal; apply IH; lia|].
  replace (Z.to_nat (k - 1)) with O by lia. reflexivity.
Qed.

(* FindByCount: nothing when the log has at most max messages, otherwise the first (count - max) offsets *)
Theorem find_by_count_ok st max :
  Inv st ->
  exists st', find_by_count H st max =
    Ok (st', let cnt := zlen (live (abs st)) in
             if cnt <=? max then [] else firstn (Z.to_nat (cnt - max)) (map moff (live (abs st)))) /\
    Inv st' /\ abs st' = abs st /\ opened st' = opened st.
Proof.
  intros HI. unfold find_by_count. destruct (log_stat_count st HI) as (st1 & sg & sz & Es & HI1 & HA1).
  destruct (log_stat_preserves H st st1 _ HI Es) as (_ & _ & Ho1). rewrite Es. cbn [bind]. cbv zeta.
  set (cnt := zlen (live (abs st))). destruct (cnt <=? max) eqn:Ec; [exists st1; split; [reflexivity|split; [exact HI1|split; assumption]]|].
  destruct (log_next_ok st1 HI1) as (st2 & En & HI2 & HA2 & Ho2). rewrite En. cbn [bind].
  destruct (scan_budget (fun b => 0 <? b) (fun b => b <=? 0) (fun _ => 1) (fun b => Z.leb_antisym 0 b) st2 (cnt - max) HI2 ltac:(clear -Ec; lia))
    as (st3 & a & Esc & Ha & HI3 & HA3 & Ho3).
  rewrite <- HA2. unfold bud_step in Esc. rewrite Esc. cbn [bind]. exists st3.
  split; [|split; [exact HI3|split; [rewrite HA3, HA2; exact HA1|rewrite Ho3, Ho2; exact Ho1]]].
  f_equal. f_equal. rewrite Ha, HA2, HA1. apply fbud_count. clear -Ec. lia.
Qed.

Theorem find_by_count_spec st max :
  Inv st ->
  exists st', find_by_count H st max =
    Ok (st', let cnt := zlen (live (abs st)) in
             if cnt <=? max then [] else firstn (Z.to_nat (cnt - max)) (map moff (live (abs st)))) /\
    Inv st' /\ abs st' = abs st.
Proof. intros HI. destruct (find_by_count_ok st max HI) as (st1 & E & HI1 & HA1 & _). exists st1. split; [exact E|split; assumption]. Qed.

(* FindBySize: nothing when the total size is below the target, otherwise the shortest prefix whose removal
   brings the estimate (total minus Size of each removed message) below the target - or everything *)
Theorem find_by_size_spec st sz c :
  Inv st -> opened st = Some c ->
  exists st' total, find_by_size H st sz =
    Ok (st', if total <? sz then [] else fbud (fun b => sz <=? b) (log_msg_size c) total (live (abs st))) /\
    (exists st1 sg cnt, log_stat H st = Ok (st1, (sg, cnt, total))) /\
    Inv st' /\ abs st' = abs st.
Proof.
  intros HI Hc. unfold find_by_size, get_cfg. rewrite Hc. cbn [bind].
  destruct (log_stat_count st HI) as (st1 & sg & total & Es & HI1 & HA1). rewrite Es. cbn [bind].
  destruct (total <? sz) eqn:Et.
  - exists st1, total. rewrite Et. split; [reflexivity|]. split; [exists st1, sg, (zlen (live (abs st))); reflexivity|]. split; assumption.
  - destruct (log_next_ok st1 HI1) as (st2 & En & HI2 & HA2 & _). rewrite En. cbn [bind].
    destruct (scan_budget (fun b => sz <=? b) (fun b => b <? sz) (log_msg_size c) (fun b => Z.ltb_antisym sz b) st2 total HI2 ltac:(clear -Et; lia))
      as (st3 & a & Esc & Ha & HI3 & HA3 & _).
    rewrite <- HA2. unfold bud_step in Esc. rewrite Esc. cbn [bind]. exists st3, total. rewrite Et.
    split; [|split; [exists st1, sg, (zlen (live (abs st))); reflexivity|split; [exact HI3|rewrite HA3, HA2; exact HA1]]]. f_equal. f_equal. rewrite Ha, HA2, HA1. reflexivity.
Qed.

End TrimProofs.
