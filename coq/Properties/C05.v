(* C05 — A crash at any step leaves a log that Recover reopens consistently (the log-file level). *)
From KV Require Import Base Model Codec CodecProofs RecoverProofs LogInv OpenProofs CrashDir CrashDirProofs RecoverCrash RecoverCrashProofs.
From KV Require PublishProofs Spec History CrashOpen.

(* a crash part-way through the append of a record (any proper prefix of the record reached the file),
   after any number of complete records, whatever the index file holds: Recover cuts exactly the torn record,
   every complete record stays - the published messages, possibly followed by a prefix of the batch *)
Theorem C05_torn_append :
  forall crc H, crc_range crc -> forall p base v ms m t idx,
  Forall msg_ok ms -> msg_ok m -> proper_prefix t (enc_rec crc v m) ->
  log_version (enc_log crc v ms ++ t) base = Ok v ->
  exists idx', recover_bytes crc H p base (enc_log crc v ms ++ t) idx = Ok (enc_log crc v ms, idx').
Proof. exact recover_torn. Qed.
Print Assumptions C05_torn_append.

(* a crash between two appends (the log holds complete records only), whatever the index file holds - torn,
   stale, missing items, garbage: the log file is unchanged *)
Theorem C05_between_appends :
  forall crc H, crc_range crc -> forall p base v ms idx,
  Forall msg_ok ms -> log_version (enc_log crc v ms) base = Ok v ->
  exists idx', recover_bytes crc H p base (enc_log crc v ms) idx = Ok (enc_log crc v ms, idx').
Proof. exact recover_clean_log. Qed.
Print Assumptions C05_between_appends.

(* whatever Recover returns (on any bytes at all): nothing else - only valid records of the old file, in
   order, from its start *)
Theorem C05_nothing_invented :
  forall crc H, crc_range crc -> forall p base b idx newlog idx',
  bytes_ok b -> recover_bytes crc H p base b idx = Ok (newlog, idx') ->
  exists v ms rest,
    log_version b base = Ok v /\ Forall msg_ok ms /\ newlog = enc_log crc v ms /\ b = newlog ++ rest /\
    (forall m rest', msg_ok m -> rest <> enc_rec crc v m ++ rest') /\
    let items := scan_items H p (placed v (hdr_size v) ms) in
    match idx' with
    | None => True
    | Some ib => (idx = Some ib /\ index_is p base idx items) \/ exists iv, ib = enc_index iv p items
    end.
Proof. exact recover_keeps_valid_prefix. Qed.
Print Assumptions C05_nothing_invented.

(* the recovered segment passes Check and recovering again changes nothing *)
Theorem C05_recover_idempotent_and_clean :
  forall crc H, crc_range crc -> (forall k, 0 <= H k < two64z) ->
  forall p base b idx newlog idx',
  bytes_ok b -> zlen b < two63 -> 0 <= base < two63 ->
  (forall v m nxt, log_version b base = Ok v -> read_rec crc v b (hdr_size v) = Ok (m, nxt) -> moff m = base) ->
  recover_bytes crc H p base b idx = Ok (newlog, idx') ->
  check_bytes crc H p base newlog idx' = Ok tt /\
  recover_bytes crc H p base newlog idx' = Ok (newlog, idx').
Proof. exact recover_then_check. Qed.
Print Assumptions C05_recover_idempotent_and_clean.

(* it can be appended to and still passes Check *)
Theorem C05_append_after_recover :
  forall crc H, crc_range crc -> forall p base v ms ms' idx,
  Forall msg_ok ms -> Forall msg_ok ms' ->
  log_version (enc_log crc v (ms ++ ms')) base = Ok v ->
  index_is p base idx (scan_items H p (placed v (hdr_size v) (ms ++ ms'))) ->
  check_bytes crc H p base (enc_log crc v ms ++ concat (map (enc_rec crc v) ms')) idx = Ok tt.
Proof. exact check_after_append. Qed.
Print Assumptions C05_append_after_recover.

(* known finding F14, shown on the model: a head file of 1..7 bytes (first V1 record torn inside its first 8
   bytes) makes Recover fail instead of truncating to the empty log *)
Theorem C05_F14_short_file_refused :
  forall crc H p base (b : bytes) idx, 0 < zlen b < 8 -> recover_bytes crc H p base b idx = Err ELogCorrupted.
Proof. exact recover_short_file_refused. Qed.
Print Assumptions C05_F14_short_file_refused.

(* ---------- the multi-file swaps of delete-by-rewrite (CrashDir.v; the step programs are compared on every run with the
   file-system events the implementation performs) *)

(* the in-place swap (Segment.Override: remove index, rename log, rename index), for a segment anywhere in the
   directory: a process that dies after ANY prefix of it leaves a well-formed directory whose content is the one
   before or the one after the Delete - a Delete in flight is either fully applied or not at all - and every index
   file is absent or the derived one *)
Theorem C05_override_crash_safe :
  forall (H : bytes -> Z) pre post s keep p,
  DirInv (pre ++ s :: post) -> (forall m, In m keep -> In m (srecs s)) -> SegProofs.recs_sorted keep ->
  match keep with [] => False | m :: _ => moff m = sbase s end ->
  forall k,
  crash_ok (pre ++ s :: post)
           (pre ++ mkSeg (sbase s) (sver s) keep (Some (sver s, derive H p (sver s) keep)) :: post)
           (fs_run (mkDir (pre ++ s :: post) (mkTmp (Some keep) (Some (sver s, derive H p (sver s) keep))))
                   (firstn k (prog_override (sbase s)))).
Proof. exact override_crash_safe. Qed.
Print Assumptions C05_override_crash_safe.

(* the removal of an emptied segment (RewriteSegment.Remove, then Segment.Remove: index, log) *)
Theorem C05_drop_crash_safe :
  forall pre post s tmp, DirInv (pre ++ s :: post) -> post <> [] ->
  forall k, crash_ok (pre ++ s :: post) (pre ++ post) (fs_run (mkDir (pre ++ s :: post) tmp) (firstn k (prog_drop (sbase s)))).
Proof. exact drop_crash_safe. Qed.
Print Assumptions C05_drop_crash_safe.

(* what Open (Recover or any other mode) shows of such a directory: the log before or after the Delete, with Inv *)
Theorem C05_reopen_after_crash :
  forall (H : bytes -> Z) before after d c0 st',
  crash_ok before after d -> dsegs d <> [] ->
  log_open H (mkState (dsegs d) 0 None false) c0 = Ok st' ->
  Inv st' /\ (abs st' = abs_dir before \/ abs st' = abs_dir after).
Proof. exact reopen_after_crash. Qed.
Print Assumptions C05_reopen_after_crash.

(* known finding F6 on the model: the swap of a REBASING delete (Rename to the new base, then Remove of the old files)
   is not atomic in this sense - after its first step the directory holds the old segment AND the rewritten one, every
   survivor twice: neither the log before nor the log after *)
Theorem C05_F6_rebase_overlap :
  forall pre post s keep ix b',
  DirInv (pre ++ s :: post) -> sbase s < b' -> (forall q, In q post -> b' < sbase q) ->
  keep <> [] -> (length keep < length (srecs s))%nat ->
  let d1 := fs_run (mkDir (pre ++ s :: post) (mkTmp (Some keep) (Some ix))) (firstn 1 (prog_rebase (sbase s) b')) in
  dsegs d1 = pre ++ s :: mkSeg b' V2 keep None :: post /\
  all_recs (dsegs d1) = all_recs pre ++ srecs s ++ keep ++ all_recs post /\
  length (all_recs (dsegs d1)) <> length (all_recs (pre ++ s :: post)) /\
  length (all_recs (dsegs d1)) <> length (all_recs (pre ++ mkSeg b' V2 keep (Some ix) :: post)).
Proof. exact rebase_crash_overlap. Qed.
Print Assumptions C05_F6_rebase_overlap.

(* rollover (and every other creation of a new empty head at NextOffset): the log file appears, then the index file;
   after any prefix of the two steps the directory is well formed and holds the same log *)
Theorem C05_create_head_crash_safe :
  forall pre hd v tmp, DirInv (pre ++ [hd]) -> srecs hd <> [] ->
  forall k, let d := fs_run (mkDir (pre ++ [hd]) tmp) (firstn k (create_head (ReaderProofs.recs_next hd) v)) in
  DirInv (dsegs d) /\ abs_dir (dsegs d) = abs_dir (pre ++ [hd]).
Proof. exact create_head_crash_safe. Qed.
Print Assumptions C05_create_head_crash_safe.

(* the directory steps of a Publish on any state with Inv (publish_prog: none, or those of a rollover), cut anywhere *)
Theorem C05_publish_dir_steps_crash_safe :
  forall c st k, Inv st -> opened st = Some c ->
  let d := fs_run (mkDir (segs st) (mkTmp None None)) (firstn k (publish_prog st)) in
  DirInv (dsegs d) /\ abs_dir (dsegs d) = abs st.
Proof. exact publish_prog_crash_safe. Qed.
Print Assumptions C05_publish_dir_steps_crash_safe.

(* Delete of every message of the WRITING segment: new head at NextOffset first, then the old files go (repair F8) *)
Theorem C05_head_all_crash_safe :
  forall pre hd v, DirInv (pre ++ [hd]) -> srecs hd <> [] ->
  forall tmp k,
  crash_ok (pre ++ [hd]) (pre ++ [mkSeg (ReaderProofs.recs_next hd) v [] (Some (v, []))])
           (fs_run (mkDir (pre ++ [hd]) tmp) (firstn k (prog_head_all (sbase hd) (ReaderProofs.recs_next hd) v))).
Proof. exact head_all_crash_safe. Qed.
Print Assumptions C05_head_all_crash_safe.

(* Delete in the WRITING segment of a set with the newest but not the first message: new head, then the in-place swap *)
Theorem C05_head_tail_override_crash_safe :
  forall (H : bytes -> Z) pre hd v, DirInv (pre ++ [hd]) -> srecs hd <> [] ->
  forall keep p,
  (forall m, In m keep -> In m (srecs hd)) -> SegProofs.recs_sorted keep ->
  match keep with [] => False | m :: _ => moff m = sbase hd end ->
  forall k,
  let ix := (sver hd, derive H p (sver hd) keep) in
  let n := ReaderProofs.recs_next hd in
  crash_ok (pre ++ [hd]) (pre ++ mkSeg (sbase hd) (sver hd) keep (Some ix) :: [mkSeg n v [] (Some (v, []))])
           (fs_run (mkDir (pre ++ [hd]) (mkTmp (Some keep) (Some ix))) (firstn k (prog_head_tail_override (sbase hd) n v))).
Proof. exact head_tail_override_crash_safe. Qed.
Print Assumptions C05_head_tail_override_crash_safe.

(* ---------- Recover itself can be interrupted (RecoverCrash.v: Segment.Recover as a program of file-system steps on the
   log, the index and the two temporary files <log>.recover and <index>.tmp; the program is compared with the FS tap of
   the real Recover on every damaged head of the C05 / C07 / C13 runs).
   For ANY bytes in the head log file, any or no index file, any stale temporary files left by earlier attempts, any
   number k of completed steps and any part j of an append in flight: running Recover on what the crash left gives the
   same log file as the uninterrupted Recover, an index file that is the same or absent (absent = rebuilt on open),
   and that segment passes Check.  "Recovering again changes nothing" therefore also holds when the first recovery
   never finished. *)
Theorem C05_recover_restartable :
  forall crc H, crc_range crc -> (forall k, 0 <= H k < two64z) ->
  forall p base b idx newlog idx',
  bytes_ok b -> zlen b < two63 -> 0 <= base < two63 ->
  (forall v m nxt, log_version b base = Ok v -> read_rec crc v b (hdr_size v) = Ok (m, nxt) -> moff m = base) ->
  recover_bytes crc H p base b idx = Ok (newlog, idx') ->
  forall prog stale_recover_tmp stale_index_tmp k j,
  recover_prog crc H p base b idx = Ok prog ->
  let img := rimage (mkRf b stale_recover_tmp idx stale_index_tmp) prog k j in
  exists i'',
    recover_bytes crc H p base (rlog img) (ridx img) = Ok (newlog, i'') /\ (i'' = idx' \/ i'' = None) /\
    check_bytes crc H p base newlog i'' = Ok tt.
Proof. exact recover_restartable. Qed.
Print Assumptions C05_recover_restartable.

(* the program run to its end leaves exactly what recover_bytes computes - the function the theorems above and the C07
   theorems are about - and no temporary copy of the log *)
Theorem C05_recover_program_computes_recover :
  forall crc H, crc_range crc -> (forall k, 0 <= H k < two64z) ->
  forall p base b idx newlog idx',
  bytes_ok b -> 0 <= base < two63 ->
  (forall v m nxt, log_version b base = Ok v -> read_rec crc v b (hdr_size v) = Ok (m, nxt) -> moff m = base) ->
  recover_bytes crc H p base b idx = Ok (newlog, idx') ->
  forall prog rt it,
  recover_prog crc H p base b idx = Ok prog ->
  rlog (rrun (mkRf b rt idx it) prog) = newlog /\ ridx (rrun (mkRf b rt idx it) prog) = idx' /\
  rrtmp (rrun (mkRf b rt idx it) prog) = None.
Proof. exact recover_prog_computes. Qed.
Print Assumptions C05_recover_program_computes_recover.

(* non-vacuity: a concrete head (two records, three bytes of a torn third, an index one item short) meets the premises;
   its Recover has 13 steps, and all its crash images (every k, every j up to the longest append) recover to the same log
   and to the new index or none: an image holds the old or the new log and the old, no or the new index
   (RecoverCrashProofs.image_vis), and on these Recover is evaluated *)
Theorem C05_recover_restartable_premises_hold : ex_ok = true.
Proof. exact recover_restartable_example. Qed.
Print Assumptions C05_recover_restartable_premises_hold.

(* ---------- Migrate of one segment can be interrupted anywhere (RecoverCrash.migrate_prog: remove the index, re-encode the
   records into <log>.migrate, rename it over the log, index.Write of the index derived from the new positions; bytes and
   file-system steps are compared with the real Segment.Migrate on every run of the C17 check).
   For a clean segment - a log file that is the encoding of messages ms in version v, named after its first record, its index
   file absent or the one derived from it - and a target version mv <> v: after ANY number k of completed steps and ANY
   part j of an append in flight, the segment passes Check and its log file is the encoding of exactly the same messages,
   in the old or in the new version.  (The index is removed FIRST: an old index beside a migrated log would be trusted -
   positions differ between the versions - which is what the seeded change C17-migrate-keeps-old-index-until-rewritten does.) *)
Theorem C05_migrate_crash_safe :
  forall crc H, crc_range crc -> (forall k, 0 <= H k < two64z) ->
  forall p base v mv iv ms idx0,
  Forall msg_ok ms -> 0 <= base < two63 ->
  match ms with [] => True | m :: _ => moff m = base end ->
  ver_eqb v mv = false ->
  hdr_size mv + recs_size mv ms < two63 ->
  index_is p base idx0 (scan_items H p (placed v (hdr_size v) ms)) ->
  forall prog stale_migrate_tmp stale_index_tmp k j,
  migrate_prog crc H p base mv iv (enc_log crc v ms) = Ok prog ->
  let img := rimage (mkRf (enc_log crc v ms) stale_migrate_tmp idx0 stale_index_tmp) prog k j in
  check_bytes crc H p base (rlog img) (ridx img) = Ok tt /\
  exists w, (w = v \/ w = mv) /\ rlog img = enc_log crc w ms.
Proof. exact migrate_crash_safe. Qed.
Print Assumptions C05_migrate_crash_safe.

(* ---------- the whole directory, at the level of records (CrashOpen.v).  A directory all of whose segments are well
   formed except that the index file of the NEWEST segment holds anything at all - missing, a prefix, stale items: what a
   crash during a Publish, a rollover or an index write leaves once the byte-level theorems above have cut the torn
   record - opens with Recover to a handle that satisfies the log invariant and shows exactly the records of the log files *)
Theorem C05_crash_open_recovers :
  forall (H : bytes -> Z) st c0,
  opened st = None -> lvirt st = false -> CrashOpen.crash_dir (segs st) ->
  crecover (norm_cfg c0) = true -> cro (norm_cfg c0) = false ->
  forall st', log_open H st c0 = Ok st' -> Inv st' /\ abs st' = abs_dir (segs st).
Proof. exact CrashOpen.crash_open_recovers. Qed.
Print Assumptions C05_crash_open_recovers.

(* hence: a Publish cut short after ANY number k of complete records of its batch - in any reachable state (Inv), with
   the rollover it required, and whatever the crash left of the writing segment's index file - reopens with Recover to
   exactly the log before it plus the first k messages of the batch, with the offsets Publish assigns: "every message
   whose Publish had returned, possibly followed by a prefix of the batch being published; nothing else" *)
Theorem C05_publish_crash_recovers :
  forall (H : bytes -> Z) st c ms k ix c0,
  Inv st -> opened st = Some c -> cro c = false -> PublishProofs.sizes_ok (firstn k ms) ->
  exists st_k,
    log_publish H st (firstn k ms) = Ok (st_k, Spec.anext (abs st) + zlen (firstn k ms)) /\
    forall st',
      crecover (norm_cfg c0) = true -> cro (norm_cfg c0) = false ->
      log_open H (mkState (CrashOpen.damage_head_index (segs st_k) ix) 0 None false) c0 = Ok st' ->
      Inv st' /\ abs st' = Spec.spec_publish (abs st) (firstn k ms).
Proof. exact CrashOpen.publish_crash_recovers. Qed.
Print Assumptions C05_publish_crash_recovers.

(* non-vacuity: after three messages, a batch of two cut after its first record, the index file reduced to its first
   item: Open with Recover succeeds and shows four messages, NextOffset 4 *)
Definition c05_hash (b : bytes) : Z := 0.
Definition c05_cfg : cfg := mkCfg false false false false 1048576 false true V2 false false.
Definition c05_state := fst (History.hrun c05_hash init_state
  [History.HOpen c05_cfg; History.HPub [mkMsg 0 5 [97%N] [1%N]; mkMsg 0 6 [98%N] [2%N]; mkMsg 0 7 [99%N] [3%N]]]).
Example C05_publish_crash_example :
  exists st_k st',
    log_publish c05_hash c05_state (firstn 1 [mkMsg 0 8 [100%N] [4%N]; mkMsg 0 9 [101%N] [5%N]]) = Ok (st_k, 4) /\
    log_open c05_hash (mkState (CrashOpen.damage_head_index (segs st_k) (Some (V2, [mkItem 0 8 0 0]))) 0 None false) c05_cfg = Ok st' /\
    map moff (Spec.live (abs st')) = [0; 1; 2; 3] /\ Spec.anext (abs st') = 4.
Proof. eexists. eexists. split; [vm_compute; reflexivity|]. split; [vm_compute; reflexivity|]. split; vm_compute; reflexivity. Qed.
