(* ReaderProofs.v — log_reader.go Consume / Get on one segment, characterised
   against the record list of the segment. *)
From KV Require Import Base Model ListAux SearchProofs SegProofs.
From Coq Require Import ZifyBool ZifyNat.

Definition seg_ok (s : seg) (items : list item) : Prop :=
  items_match (sver s) (hdr_size (sver s)) (srecs s) items /\ recs_sorted (srecs s)
  /\ (forall m, In m (srecs s) -> 0 <= moff m).

Definition ge_filter (off : Z) (recs : list msg) : list msg :=
  filter (fun x => off <=? moff x) recs.

Definition find_rec (recs : list msg) (off : Z) : option msg := find (fun x => moff x =? off) recs.

Definition recs_next (s : seg) : Z :=
  match last_opt (srecs s) with Some m => moff m + 1 | None => sbase s end.

Lemma seg_ok_offs_sorted s items : seg_ok s items -> offs_sorted items.
Proof. intros [[Ho _] [Hs _]]. unfold offs_sorted. rewrite Ho. exact Hs. Qed.

Lemma seg_ok_nil_items s : seg_ok s [] -> srecs s = [].
Proof. intros [[Ho _] _]. destruct (srecs s); [reflexivity|discriminate]. Qed.

Lemma seg_ok_nil_recs s items : seg_ok s items -> srecs s = [] -> items = [].
Proof. intros [Hm _] E. rewrite E in Hm. exact (items_match_nil _ _ _ Hm). Qed.

Lemma seg_ok_item_rec s items it :
  seg_ok s items -> In it items -> exists m, In m (srecs s) /\ moff m = ioff it.
Proof.
  intros [[Ho _] _] Hin. assert (Hx : In (ioff it) (map moff (srecs s))) by (rewrite <- Ho; now apply in_map).
  apply in_map_iff in Hx. destruct Hx as (m & Hm & Hi). eauto.
Qed.

Lemma seg_ok_rec_item s items m :
  seg_ok s items -> In m (srecs s) -> exists it, In it items /\ ioff it = moff m.
Proof.
  intros [[Ho _] _] Hin. assert (Hx : In (moff m) (map ioff items)) by (rewrite Ho; now apply in_map).
  apply in_map_iff in Hx. destruct Hx as (it & Hm & Hi). eauto.
Qed.

Lemma idx_next_recs s items : seg_ok s items -> idx_next s items = recs_next s.
Proof.
  intros [[Ho _] _]. unfold idx_next, recs_next.
  assert (E : option_map ioff (last_opt items) = option_map moff (last_opt (srecs s)))
    by (rewrite <- !last_opt_map, Ho; reflexivity).
  destruct (last_opt items), (last_opt (srecs s)); cbn in E; try discriminate; [|reflexivity].
  injection E as ->. reflexivity.
Qed.

Lemma item_pos_nonneg s items it : seg_ok s items -> In it items -> 0 <= ipos it.
Proof.
  intros [Hm _] Hin. pose proof (in_items_pos_ge _ _ _ _ _ Hm Hin). destruct (sver s); cbn in *; lia.
Qed.

Lemma item_off_nonneg s items it : seg_ok s items -> In it items -> 0 <= ioff it.
Proof.
  intros Hok Hin. destruct (seg_ok_item_rec _ _ _ Hok Hin) as (m & Hm & <-).
  destruct Hok as (_ & _ & Hnn). now apply Hnn.
Qed.

Lemma item_le_last s items d it : seg_ok s items -> In it items -> ioff it <= ioff (last items d).
Proof.
  intros Hok Hin.
  pose proof (sorted_lt_le_last (map ioff items) (ioff d) (ioff it)
                (seg_ok_offs_sorted _ _ Hok) (in_map ioff _ _ Hin)) as Hle.
  now rewrite last_map' in Hle.
Qed.

Lemma index_consume_any s first rest off :
  let items := first :: rest in
  seg_ok s items -> off <> OffsetNewest ->
  let lst := last items first in
  if ioff lst <? off then index_consume items off = Err EAfterEnd
  else exists it, first_ge items off = Some it /\ index_consume items off = Ok (ipos it, ipos lst).
Proof.
  cbv zeta. intros Hok Hnew. destruct (Z.eq_dec off OffsetOldest) as [->|Hold].
  - (* offsets are non-negative, so OffsetOldest lies before the first *)
    assert (Hf0 : 0 <= ioff first) by (apply (item_off_nonneg s _ _ Hok); left; reflexivity).
    assert (Hl0 : 0 <= ioff (last (first :: rest) first))
      by (apply (item_off_nonneg s _ _ Hok), last_in; discriminate).
    unfold OffsetOldest in *. destruct (ioff (last (first :: rest) first) <? -2) eqn:E; [lia|].
    exists first. split; [|reflexivity]. apply (find_ge_at ioff _ _ 0); [reflexivity|apply below_0|lia].
  - apply (index_consume_spec (first :: rest) off (seg_ok_offs_sorted _ _ Hok)). unfold is_relative. tauto.
Qed.

(* an empty index, or one that ends before off: only the head segment answers, when off is its next offset *)
Lemma reader_consume_index_err s items hd off max e :
  off <> OffsetNewest -> index_consume items off = Err e -> e = EIdxEmpty \/ e = EAfterEnd ->
  reader_consume s items hd off max =
  if hd && (off <=? idx_next s items) then Ok (idx_next s items, []) else Err e.
Proof.
  intros Hnew Hic He. unfold reader_consume, ridx_consume. destruct (off =? OffsetNewest) eqn:En; [lia|]. rewrite Hic.
  destruct He as [-> | ->]; cbn [ierr_eqb orb andb]; destruct (hd && (off <=? idx_next s items)); reflexivity.
Qed.

Theorem reader_consume_spec s items hd off max :
  seg_ok s items -> 1 <= max -> off <> OffsetNewest ->
  match ge_filter off (srecs s) with
  | _ :: _ =>
    let ms := firstn (Z.to_nat max) (ge_filter off (srecs s)) in
    exists m, last_opt ms = Some m /\ reader_consume s items hd off max = Ok (moff m + 1, ms)
  | [] =>
    reader_consume s items hd off max =
    if hd && (off <=? recs_next s) then Ok (recs_next s, [])
    else Err (match srecs s with [] => EIdxEmpty | _ => EAfterEnd end)
  end.
Proof.
  intros Hok Hmax Hnew. rewrite <- (idx_next_recs s items Hok).
  destruct items as [|first rest] eqn:Eitems.
  - rewrite (seg_ok_nil_items s Hok). cbn [ge_filter filter].
    apply reader_consume_index_err; [exact Hnew|reflexivity|left; reflexivity].
  - pose proof (index_consume_any s first rest off Hok Hnew) as Hic. cbn zeta in Hic.
    set (lst := last (first :: rest) first) in *.
    destruct (ioff lst <? off) eqn:Elt.
    + assert (Hnil : ge_filter off (srecs s) = []).
      { apply filter_nil_iff. intros m Hm.
        destruct (seg_ok_rec_item _ _ _ Hok Hm) as (it & Hit & Hio).
        assert (ioff it <= ioff lst) by (apply (item_le_last s (first :: rest) first it Hok Hit)).
        lia. }
      rewrite Hnil. destruct (srecs s) as [|m0 r0] eqn:Er; [now pose proof (seg_ok_nil_recs _ _ Hok Er)|].
      apply reader_consume_index_err; [exact Hnew|exact Hic|right; reflexivity].
    + destruct Hic as (it & Hfg & Hic).
      destruct (first_ge_in _ _ _ Hfg) as [Hin Hge].
      destruct (seg_ok_item_rec _ _ _ Hok Hin) as (m & Hm & Hmo).
      destruct (ge_filter off (srecs s)) as [|g0 gr] eqn:Eg;
        [pose proof (proj1 (filter_nil_iff _ _) Eg m Hm) as Hf; cbn in Hf; lia|].
      cbn zeta. unfold reader_consume, ridx_consume. destruct (off =? OffsetNewest) eqn:En; [lia|]. rewrite Hic. cbn [bind].
      pose proof (item_pos_nonneg _ _ _ Hok Hin) as Hp0.
      destruct (ipos it =? -1) eqn:E1; [lia|].
      destruct Hok as (Hmatch & Hsort & Hnn). subst lst.
      rewrite (messages_consume_spec s (first :: rest) off it max Hmatch Hsort Hfg ltac:(lia) first).
      cbn [bind]. fold (ge_filter off (srecs s)). rewrite Eg.
      assert (Hfn : firstn (Z.to_nat max) (g0 :: gr) <> []) by (apply firstn_nonempty; [discriminate|lia]).
      destruct (last_opt (firstn (Z.to_nat max) (g0 :: gr))) as [ml|] eqn:El.
      * exists ml. split; reflexivity.
      * apply last_opt_none in El. contradiction.
Qed.

Lemma reader_consume_newest s items hd max :
  seg_ok s items -> reader_consume s items hd OffsetNewest max = Ok (recs_next s, []).
Proof. intros Hok. unfold reader_consume. cbn. now rewrite (idx_next_recs s items Hok). Qed.

Lemma find_item_rec s items off :
  seg_ok s items ->
  match find_item items off with
  | Some it => exists m, find_rec (srecs s) off = Some m /\ read_at s (ipos it) = Ok m
  | None => find_rec (srecs s) off = None
  end.
Proof. intros (Hm & _). exact (find_item_read _ _ _ _ off Hm). Qed.

Theorem reader_get_spec s items hd off :
  seg_ok s items -> 0 <= off ->
  match find_rec (srecs s) off with
  | Some m => reader_get s items hd off = Ok m
  | None =>
    exists e, reader_get s items hd off = Err e /\
    match srecs s with
    | [] => e = EIdxEmpty
    | first :: _ =>
      if off <? moff first then e = EBeforeStart
      else if recs_next s <=? off then e = (if hd then EInvalidOffset else EAfterEnd)
      else e = EOffNotFound
    end
  end.
Proof.
  intros Hok Hoff.
  pose proof (find_item_rec s items off Hok) as Hfi.
  pose proof (seg_ok_offs_sorted _ _ Hok) as Hs. pose proof (sorted_lt_le _ Hs) as Hle.
  pose proof (index_get_spec items off Hs) as Hspec.
  specialize (Hspec ltac:(unfold is_relative, OffsetOldest, OffsetNewest; lia)).
  unfold reader_get, ridx_get.
  destruct items as [|first rest] eqn:Eitems.
  - rewrite (seg_ok_nil_items s Hok) in *. cbn [find_rec find]. rewrite Hspec. cbn [ierr_eqb andb bind].
    exists EIdxEmpty. split; reflexivity.
  - destruct (znth_ends first rest) as (H0 & Hlast & Hlen). cbv zeta in Hspec.
    set (lst := last (first :: rest) first) in *.
    assert (Hnext : recs_next s = ioff lst + 1).
    { rewrite <- (idx_next_recs s (first :: rest) Hok). unfold idx_next.
      now rewrite (last_opt_last (first :: rest) first) by discriminate. }
    destruct (srecs s) as [|m0 r0] eqn:Er; [now pose proof (seg_ok_nil_recs _ _ Hok Er)|].
    assert (Hfirst : ioff first = moff m0).
    { destruct Hok as ((Ho & _) & _). rewrite Er in Ho. now injection Ho. }
    rewrite <- Hfirst, Hnext.
    destruct (off <? ioff first) eqn:E1; [|destruct (ioff lst <? off) eqn:E2].
    + (* every offset of the index is above off *)
      rewrite (find_item_none _ off 0 (0 - 1)) in Hfi;
        [|apply below_0|apply (above_step ioff _ off 0 first Hle H0); lia|lia].
      rewrite Hfi, Hspec. cbn [ierr_eqb andb bind]. exists EBeforeStart. split; reflexivity.
    + (* every offset of the index is below off *)
      rewrite (find_item_none _ off (zlen (first :: rest) - 1 + 1) (zlen (first :: rest) - 1)) in Hfi;
        [|apply (below_step ioff _ off _ lst Hle Hlast); lia|apply above_end|lia].
      assert (Hge : (ioff lst + 1 <=? off) = true) by lia.
      rewrite Hfi, Hspec, (idx_next_recs s _ Hok), Hnext, Hge. cbn [ierr_eqb andb].
      destruct hd; cbn [andb bind]; eexists; split; reflexivity.
    + assert (Hge : (ioff lst + 1 <=? off) = false) by lia. rewrite Hge.
      destruct (find_item (first :: rest) off) as [it|] eqn:Ef.
      * destruct Hfi as (m & Hfr & Hrd). rewrite Hfr, Hspec. cbn [bind]. exact Hrd.
      * rewrite Hfi, Hspec. cbn [ierr_eqb andb bind]. exists EOffNotFound. split; reflexivity.
Qed.

Lemma reader_get_oldest s items hd m r :
  seg_ok s items -> srecs s = m :: r -> reader_get s items hd OffsetOldest = Ok m.
Proof.
  intros Hok Er. destruct Hok as (Hm & _). rewrite Er in Hm.
  destruct (items_match_cons _ _ _ _ _ Hm) as (i0 & ir & -> & Ho & Hp & Hr).
  unfold reader_get, ridx_get. cbn [index_get]. cbn. unfold read_at. rewrite Er, Hp. cbn.
  now rewrite Z.eqb_refl.
Qed.

Lemma reader_get_newest s items hd d :
  seg_ok s items -> srecs s <> [] -> reader_get s items hd OffsetNewest = Ok (last (srecs s) d).
Proof.
  intros Hok Hne. destruct items as [|first rest]; [now pose proof (seg_ok_nil_items _ Hok)|].
  unfold reader_get, ridx_get. rewrite index_get_newest. cbn [bind].
  apply read_at_last; [apply Hok|exact Hne].
Qed.
