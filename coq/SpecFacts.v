(* SpecFacts.v — facts about the Spec.v checkers themselves (no model involved): which answers check_consume and
   check_get accept and, from that, the agreement of Get with Consume(off, 1) on a log with strictly increasing
   offsets below anext. *)
From KV Require Import Base Spec.
From Coq Require Import ZifyBool ZifyNat.

Lemma bytes_eqb_eq a b : bytes_eqb a b = true -> a = b.
Proof.
  revert b; induction a as [|x a IH]; intros [|y b]; cbn; try discriminate; [reflexivity|].
  intros E. apply andb_prop in E. destruct E as [E1 E2]. apply N.eqb_eq in E1. subst. f_equal. now apply IH.
Qed.

Lemma bytes_eqb_refl b : bytes_eqb b b = true.
Proof. induction b as [|x b IH]; [reflexivity|]. cbn. now rewrite N.eqb_refl, IH. Qed.

Lemma msg_eqb_eq a b : msg_eqb a b = true -> a = b.
Proof.
  unfold msg_eqb. intros E. apply andb_prop in E. destruct E as [E Hv].
  apply andb_prop in E. destruct E as [E Hk]. apply andb_prop in E. destruct E as [Ho Ht].
  apply Z.eqb_eq in Ho, Ht. apply bytes_eqb_eq in Hk, Hv. destruct a, b; cbn in *. congruence.
Qed.

Lemma msg_eqb_refl m : msg_eqb m m = true.
Proof. unfold msg_eqb. now rewrite !Z.eqb_refl, !bytes_eqb_refl. Qed.

Lemma is_prefix_app ms r : is_prefix ms (ms ++ r) = true.
Proof. induction ms as [|x ms IH]; [reflexivity|]. cbn. now rewrite msg_eqb_refl, IH. Qed.

Lemma is_prefix_firstn n l r : is_prefix (firstn n l) (l ++ r) = true.
Proof. rewrite <- (firstn_skipn n l) at 2. rewrite <- app_assoc. apply is_prefix_app. Qed.

Lemma check_consume_nonempty a off max n ms m :
  off <= anext a -> off <> OffsetNewest ->
  is_prefix ms (from_off (live a) off) = true -> zlen ms <= max ->
  last_opt ms = Some m -> n = moff m + 1 ->
  check_consume a off max (OOk (n, ms)) = true.
Proof.
  intros Hle Hnew Hpre Hlen Hlast ->. unfold check_consume, OffsetNewest in *.
  destruct (anext a <? off) eqn:E1; [lia|]. destruct (off =? -1) eqn:E2; [lia|].
  destruct ms as [|x ms]; [discriminate|]. rewrite Hpre, Hlast.
  destruct (zlen (x :: ms) <=? max) eqn:E3; [|lia]. cbn. now rewrite Z.eqb_refl.
Qed.

Lemma check_consume_caught_up a off max :
  off <= anext a -> off <> OffsetNewest -> from_off (live a) off = [] ->
  check_consume a off max (OOk (anext a, [])) = true.
Proof.
  intros Hle Hnew Hfrom. unfold check_consume, OffsetNewest in *.
  destruct (anext a <? off) eqn:E1; [lia|]. destruct (off =? -1) eqn:E2; [lia|].
  rewrite Hfrom. cbn. rewrite Z.leb_refl, Z.eqb_refl. reflexivity.
Qed.

Lemma check_consume_beyond a off max :
  anext a < off -> check_consume a off max (OErr CInvalidOffset) = true.
Proof. intros Hlt. unfold check_consume. destruct (anext a <? off) eqn:E; [reflexivity|lia]. Qed.

Lemma check_consume_newest a max : 0 <= anext a ->
  check_consume a OffsetNewest max (OOk (anext a, [])) = true.
Proof.
  intros Hnn. unfold check_consume, OffsetNewest. destruct (anext a <? -1) eqn:E; [lia|].
  cbn. now rewrite Z.eqb_refl.
Qed.

Lemma check_get_found a off m : 0 <= off -> find_off (live a) off = Some m -> check_get a off (OOk m) = true.
Proof.
  intros Hoff Hf. unfold check_get. destruct (0 <=? off) eqn:E; [|lia]. rewrite Hf. apply msg_eqb_refl.
Qed.

Lemma check_get_missing a off : 0 <= off -> find_off (live a) off = None ->
  check_get a off (OErr (if off <? anext a then CNotFound else CInvalidOffset)) = true.
Proof.
  intros Hoff Hf. unfold check_get. destruct (0 <=? off) eqn:E; [|lia]. rewrite Hf.
  destruct (off <? anext a); reflexivity.
Qed.

Fixpoint offs_increasing_from (lo : Z) (l : list msg) : Prop :=
  match l with [] => True | m :: r => lo < moff m /\ offs_increasing_from (moff m) r end.
Definition offs_increasing (l : list msg) : Prop :=
  match l with [] => True | m :: r => offs_increasing_from (moff m) r end.

Lemma offs_increasing_from_gt lo l x : offs_increasing_from lo l -> In x l -> lo < moff x.
Proof.
  revert lo; induction l as [|m r IH]; intros lo Hi Hin; [contradiction|].
  destruct Hi as [Hlt Hr]. destruct Hin as [<-|Hin]; [assumption|]. specialize (IH _ Hr Hin). lia.
Qed.

Lemma from_off_head l off m :
  offs_increasing l -> 0 <= off -> find_off l off = Some m ->
  exists r, from_off l off = m :: r.
Proof.
  intros Hinc Hoff Hf. unfold from_off. destruct (off <? 0) eqn:E; [lia|]. clear E.
  unfold find_off in Hf.
  induction l as [|a l IH]; [discriminate|]. cbn in Hf |- *.
  destruct (moff a =? off) eqn:E1.
  - injection Hf as <-. destruct (off <=? moff a) eqn:E2; [|lia]. eauto.
  - destruct (off <=? moff a) eqn:E2.
    + (* a is above off, so every later element is too: off cannot be found later *)
      exfalso. apply find_some in Hf. destruct Hf as [Hin Heq].
      cbn in Hinc. pose proof (offs_increasing_from_gt _ _ _ Hinc Hin). lia.
    + apply IH; [|assumption]. cbn in Hinc. destruct l as [|b l']; [exact I|]. cbn in Hinc |- *. tauto.
Qed.

Lemma check_get_find a off g :
  0 <= off -> check_get a off g = true ->
  find_off (live a) off = match g with OOk m => Some m | OErr _ => None end.
Proof.
  unfold check_get. intros Hoff Hg. destruct (0 <=? off) eqn:E; [|lia].
  destruct (find_off (live a) off) as [m'|], g as [m|cl]; try discriminate; [| |reflexivity].
  - f_equal. now apply msg_eqb_eq.
  - destruct (off <? anext a); discriminate.
Qed.

Lemma check_consume_one a off n x :
  0 <= off -> check_consume a off 1 (OOk (n, [x])) = true -> exists r, from_off (live a) off = x :: r.
Proof.
  unfold check_consume, OffsetNewest. intros Hoff Hc.
  destruct (anext a <? off); [discriminate|]. destruct (off =? -1) eqn:E; [lia|].
  destruct (from_off (live a) off) as [|z zs]; [discriminate|].
  cbn [is_prefix] in Hc. do 3 (apply andb_prop in Hc; destruct Hc as [Hc _]).
  apply msg_eqb_eq in Hc. subst z. now exists zs.
Qed.

Lemma check_consume_live a off c m r :
  0 <= off -> from_off (live a) off = m :: r -> moff m = off -> moff m < anext a ->
  check_consume a off 1 c = true -> exists n x, c = OOk (n, [x]).
Proof.
  unfold check_consume, OffsetNewest. intros Hoff -> Hm Hlt Hc.
  destruct (anext a <? off) eqn:E1; [lia|]. destruct (off =? -1) eqn:E2; [lia|].
  destruct c as [[n [|x [|y ms]]]|cl]; [|eauto|..|discriminate].
  - cbn [existsb] in Hc. destruct (moff m <? n) eqn:E3; [|lia].
    cbn in Hc. rewrite andb_false_r in Hc. discriminate.
  - apply andb_prop in Hc. destruct Hc as [Hc _]. apply andb_prop in Hc. destruct Hc as [_ Hc].
    unfold zlen in Hc. cbn [length] in Hc. lia.
Qed.

(* C04, last sentence: Get agrees with what Consume shows for the same offset *)
Theorem get_consume_agree a off g c :
  offs_increasing (live a) -> (forall m, In m (live a) -> moff m < anext a) -> 0 <= off ->
  check_get a off g = true -> check_consume a off 1 c = true ->
  check_get_consume_agree off g c = true.
Proof.
  intros Hinc Hlt Hoff Hg Hc. unfold check_get_consume_agree. destruct (off <? 0) eqn:E0; [lia|].
  apply check_get_find in Hg; [|exact Hoff]. destruct g as [m|cl].
  - (* Get returned m: it is live at off, so Consume shows exactly m *)
    destruct (from_off_head _ _ _ Hinc Hoff Hg) as (r & Hfrom).
    apply find_some in Hg. destruct Hg as [Hin Heq]. apply Z.eqb_eq in Heq.
    destruct (check_consume_live a off c m r Hoff Hfrom Heq (Hlt m Hin) Hc) as (n & x & ->).
    destruct (check_consume_one a off n x Hoff Hc) as (r' & Hx). rewrite Hfrom in Hx. injection Hx as <- _.
    now rewrite msg_eqb_refl.
  - (* Get found nothing: whatever Consume shows is live, hence has another offset *)
    destruct c as [[n [|x [|y ms]]]|cl']; try reflexivity.
    destruct (check_consume_one a off n x Hoff Hc) as (r & Hx). unfold from_off in Hx. rewrite E0 in Hx.
    assert (Hin : In x (filter (fun m => off <=? moff m) (live a))) by (rewrite Hx; left; reflexivity).
    apply filter_In in Hin. destruct Hin as [Hin _].
    pose proof (find_none _ _ Hg x Hin) as Hn. cbn beta in Hn. now rewrite Hn.
Qed.
