(* C07, and the byte-level part of C05/C06: a scan of the log file stops exactly at the end of the longest prefix of valid
   records; Recover keeps exactly that prefix, Check accepts exactly the clean segments, and after Recover Check succeeds.
   A record cut short by a crash is rejected as corruption, so of a clean log cut at any byte Recover keeps the records
   below the cut.  All of it goes through the scan: [scan_file] says what a scan returns, [recover_of_scan] what Recover
   makes of it. *)
From KV Require Import Base Model ListAux SearchProofs SpecFacts Codec CodecProofs RecoverCrash.
From Coq Require Import ZifyBool ZifyNat.

Theorem read_rec_v1_sound crc b pos m nxt :
  bytes_ok b -> 0 <= pos -> read_rec crc V1 b pos = Ok (m, nxt) ->
  nxt = pos + rec_size V1 m /\ sub b pos (rec_size V1 m) = enc_rec crc V1 m.
Proof.
  intros Hok Hpos E. rewrite read_rec_eq in E. cbv zeta in E. set (hdr := sub b pos 28) in E.
  apply guard_ok in E as [_ E]. apply guard_ok in E as [G28 E].
  apply read_fields_ok in E as (_ & Ho & Ht & Hk & Hl & Hpay & Hc & Hn). cbv beta in Hc. change (zlen []) with 0 in *.
  pose proof (zlen_nonneg (mkey m)). pose proof (zlen_nonneg (mval m)).
  assert (Hh28 : zlen hdr = 28) by (apply sub_not_short; [lia|exact G28]).
  assert (Hhok : bytes_ok hdr) by (apply bytes_ok_sub; exact Hok).
  unfold rec_size, rec_overhead. split; [lia|].
  replace (28 + zlen (mkey m) + zlen (mval m)) with (28 + (zlen (mkey m) + zlen (mval m) + 0)) by lia.
  rewrite sub_concat, Hpay by lia. fold hdr. rewrite enc_rec_v1_eq, Ho, Ht, Hk, Hl, Hc. clear - Hh28 Hhok.
  rewrite !be_i64_sub, !be_i32_sub, be_debe_sub by (assumption || lia).
  (* the header is the concatenation of its fields *)
  f_equal. rewrite <- 4 (sub_concat hdr) by lia. symmetry. apply sub_all; [reflexivity|now rewrite Hh28].
Qed.

Theorem read_rec_sound crc v b pos m nxt :
  bytes_ok b -> 0 <= pos -> read_rec crc v b pos = Ok (m, nxt) ->
  nxt = pos + rec_size v m /\ sub b pos (rec_size v m) = enc_rec crc v m /\ msg_ok m.
Proof.
  intros Hok Hpos E. rewrite <- and_assoc. split; [|exact (read_rec_msg_ok crc v b pos m nxt Hok E)].
  destruct v; [now apply read_rec_v1_sound|now apply read_rec_v2_sound].
Qed.

Lemma scan_log_sound crc v b : forall fuel pos recs e fin,
  bytes_ok b -> 0 <= pos -> scan_log crc fuel v b pos = (recs, e, fin) ->
  recs = placed v pos (map snd recs) /\ e = pos + recs_size v (map snd recs) /\
  sub b pos (e - pos) = concat (map (enc_rec crc v) (map snd recs)) /\ Forall msg_ok (map snd recs) /\
  match fin with
  | ScanEOF => zlen b <= e
  | ScanCorrupt => exists err, read_rec crc v b e = Err err /\ err <> EEOF
  | ScanFuel => (fuel <= Z.to_nat (zlen b - pos))%nat
  end.
Proof.
  induction fuel as [|f IH]; intros pos recs e fin Hok Hpos E; cbn [scan_log] in E.
  - injection E as <- <- <-. cbn. rewrite Z.sub_diag, sub_zero. repeat split; [lia|constructor|lia].
  - destruct (read_rec crc v b pos) as [[m nxt]|err] eqn:Er.
    + destruct (scan_log crc f v b nxt) as [[l p] e'] eqn:Es. injection E as <- <- <-.
      destruct (read_rec_sound crc v b pos m nxt Hok Hpos Er) as (Hn & Henc & Hmok).
      pose proof (rec_size_pos v m) as H28.
      destruct (IH nxt l p e' Hok ltac:(lia) Es) as (Hl & Hp & Hsub & Hall & Hfin).
      cbn [map snd placed recs_size concat]. split; [f_equal; subst nxt; exact Hl|]. split; [lia|].
      split; [|split; [constructor; assumption|]].
      2:{ (* a record read lies inside the file, so a byte of fuel per step is enough *)
          destruct e'; [exact Hfin..|]. apply (f_equal zlen) in Henc. rewrite enc_rec_length in Henc.
          pose proof (sub_full_le b pos (rec_size v m) Hpos ltac:(lia) Henc). lia. }
      pose proof (recs_size_nonneg v (map snd l)) as Hnn.
      replace (p - pos) with (rec_size v m + (p - nxt)) by lia. rewrite sub_concat, Henc by lia. f_equal.
      replace (pos + rec_size v m) with nxt by lia. exact Hsub.
    + destruct (read_rec_err crc v b pos err Er) as [[-> Hz]| ->]; injection E as <- <- <-;
        cbn [map placed recs_size concat]; rewrite Z.sub_diag, sub_zero; repeat split; try lia; try constructor.
      * now apply (read_rec_eof_iff crc v b pos Hpos).
      * exists ELogCorrupted. split; [exact Er|discriminate].
Qed.

Lemma log_version_prefix b b' base :
  (zlen b =? 0) = (zlen b' =? 0) -> (zlen b <? 8) = (zlen b' <? 8) -> sub b 0 8 = sub b' 0 8 ->
  log_version b base = log_version b' base.
Proof. intros E0 E8 Es. unfold log_version. now rewrite E0, E8, Es. Qed.

Lemma log_version_v2_header b base : log_version b base = Ok V2 -> 8 <= zlen b /\ sub b 0 8 = enc_log_header V2.
Proof.
  unfold log_version. destruct (zlen b =? 0) eqn:E0; [discriminate|]. destruct (zlen b <? 8) eqn:E8; [discriminate|].
  set (h := sub b 0 8). assert (Hh : zlen h = 8) by (apply zlen_sub_exact; lia).
  destruct (bytes_eqb (sub h 0 6) log_magic) eqn:Em.
  - apply bytes_eqb_eq in Em.
    destruct (sub h 6 2) as [|vb [|rb [|x r]]] eqn:E2; try discriminate.
    destruct (1 <? vb)%N eqn:Ev; [discriminate|]. destruct (negb (rb =? 0)%N) eqn:Er; [discriminate|].
    destruct (vb =? 1)%N eqn:Ev1; [|discriminate]. intros _. split; [lia|].
    rewrite (sub_split h 6) by lia. rewrite Em, Hh. change (8 - 6) with 2. rewrite E2.
    apply N.eqb_eq in Ev1. apply negb_false_iff, N.eqb_eq in Er. now subst vb rb.
  - destruct (i64 (debe h) =? base); discriminate.
Qed.

Lemma sub_cons0 x (l : bytes) n : 0 < n -> sub (x :: l) 0 n = x :: sub l 0 (n - 1).
Proof. intros Hn. rewrite !sub_nat by lia. replace (Z.to_nat n) with (S (Z.to_nat (n - 1))) by lia. reflexivity. Qed.

(* a V1 file begins with the offset of its first record and is never taken for a V2 file: the first byte of a
   non-negative 8-byte number is below 128, that of a magic 255 *)
Lemma be8_not_magic z rest t : 0 <= z < two63 -> bytes_eqb (sub (sub (be 8 z ++ rest) 0 8) 0 6) (255%N :: t) = false.
Proof.
  intros Hz. rewrite (sub_take (be 8 z) rest) by (rewrite ?zlen_be; lia).
  rewrite be_cons, sub_cons0 by lia. cbn [bytes_eqb].
  assert (0 <= z / 256 ^ Z.of_nat 7 < 128).
  { change (256 ^ Z.of_nat 7) with 72057594037927936. unfold two63 in Hz. split; [apply Z.div_pos; lia|apply Z.div_lt_upper_bound; lia]. }
  rewrite Z.mod_small by lia. destruct (_ =? 255)%N eqn:E; [lia|reflexivity].
Qed.

Lemma log_version_be8 base rest : 0 <= base < two63 -> log_version (be 8 base ++ rest) base = Ok V1.
Proof.
  intros Hb. pose proof (zlen_nonneg rest). unfold log_version. rewrite zlen_app, zlen_be.
  destruct (Z.of_nat 8 + zlen rest =? 0) eqn:E0; [lia|]. destruct (Z.of_nat 8 + zlen rest <? 8) eqn:E8; [lia|].
  unfold log_magic. rewrite be8_not_magic by exact Hb.
  rewrite (sub_take (be 8 base) rest), i64_debe_be, Z.eqb_refl by (rewrite ?zlen_be; unfold two63 in *; lia). reflexivity.
Qed.

Lemma log_version_enc crc v ms base :
  (v = V1 -> match ms with [] => True | m :: _ => moff m = base /\ 0 <= base < two63 end) ->
  log_version (enc_log crc v ms) base = Ok v.
Proof.
  destruct v; intros Hv1.
  - destruct ms as [|m r]; [reflexivity|]. destruct (Hv1 eq_refl) as [<- Hr]. unfold enc_log, enc_rec. cbn [enc_log_header app map concat].
    rewrite <- !app_assoc. now apply log_version_be8.
  - unfold enc_log. set (rest := concat (map (enc_rec crc V2) ms)). pose proof (zlen_nonneg rest).
    unfold log_version. rewrite zlen_app, (sub_take (enc_log_header V2) rest) by reflexivity.
    change (zlen (enc_log_header V2)) with 8.
    destruct (8 + zlen rest =? 0) eqn:E0; [lia|]. destruct (8 + zlen rest <? 8) eqn:E8; [lia|]. reflexivity.
Qed.

Lemma log_version_v1_cases b base :
  log_version b base = Ok V1 -> zlen b = 0 \/ (8 <= zlen b /\ i64 (debe (sub b 0 8)) = base).
Proof.
  unfold log_version. destruct (zlen b =? 0) eqn:E0; [left; lia|]. destruct (zlen b <? 8) eqn:E8; [discriminate|].
  destruct (bytes_eqb (sub (sub b 0 8) 0 6) log_magic).
  - destruct (sub (sub b 0 8) 6 2) as [|vb [|rb [|x r]]]; try discriminate.
    destruct (1 <? vb)%N; [discriminate|]. destruct (negb (rb =? 0)%N); [discriminate|]. destruct (vb =? 1)%N; discriminate.
  - destruct (i64 (debe (sub b 0 8)) =? base) eqn:Eb; [|discriminate]. intros _. right. split; lia.
Qed.

Lemma scan_file crc v b base fuel recs e fin :
  bytes_ok b -> log_version b base = Ok v ->
  scan_log crc fuel v b (hdr_size v) = (recs, e, fin) ->
  recs = placed v (hdr_size v) (map snd recs) /\ Forall msg_ok (map snd recs) /\
  e = log_size v (map snd recs) /\ e <= zlen b /\ sub b 0 e = enc_log crc v (map snd recs) /\
  match fin with
  | ScanEOF => e = zlen b
  | ScanCorrupt => exists err, read_rec crc v b e = Err err /\ err <> EEOF
  | ScanFuel => (fuel <= Z.to_nat (zlen b - hdr_size v))%nat
  end.
Proof.
  intros Hok Hv Es. assert (Hh : 0 <= hdr_size v) by (destruct v; cbn; lia).
  destruct (scan_log_sound crc v b fuel (hdr_size v) recs e fin Hok Hh Es) as (Hr & He & Hsub & Hall & Hfin).
  set (ms := map snd recs) in *. pose proof (recs_size_nonneg v ms) as Hnn.
  pose proof (zlen_concat_enc crc v ms) as Hzl.
  assert (hdr_size v <= zlen b /\ sub b 0 (hdr_size v) = enc_log_header v) as [Hhle Hhsub].
  { destruct v; [split; [apply zlen_nonneg|apply sub_zero]|exact (log_version_v2_header b base Hv)]. }
  assert (Hele : e <= zlen b).
  { destruct (Z.eq_dec (recs_size v ms) 0) as [Ez|Ez]; [lia|].
    apply (f_equal zlen) in Hsub. rewrite Hzl in Hsub.
    pose proof (sub_full_le b (hdr_size v) (e - hdr_size v) Hh ltac:(lia) ltac:(lia)). lia. }
  split; [exact Hr|]. split; [exact Hall|]. split; [unfold log_size; lia|]. split; [exact Hele|].
  split; [|destruct fin; [lia|exact Hfin..]].
  unfold enc_log. rewrite <- Hsub, <- Hhsub, <- sub_concat by lia. f_equal. lia.
Qed.

Lemma scan_fuel_enough (b : bytes) v : (Z.to_nat (zlen b - hdr_size v) < scan_fuel_of b)%nat.
Proof. unfold scan_fuel_of, zlen. destruct v; cbn [hdr_size]; lia. Qed.

Lemma items_eqb_eq a b : list_eqb item_eqb a b = true <-> a = b.
Proof.
  revert b. induction a as [|x a IH]; intros [|y b]; cbn [list_eqb]; try (split; [discriminate|discriminate]); [tauto|].
  split.
  - intros E. apply andb_prop in E. destruct E as [E1 E2]. apply IH in E2. subst b. f_equal.
    unfold item_eqb in E1. destruct x, y; cbn in *. f_equal; lia.
  - intros E. injection E as <- <-. apply andb_true_intro. split; [unfold item_eqb; lia|]. apply IH. reflexivity.
Qed.

Section RecoverCheck.
Variables crc H : bytes -> Z.
Hypothesis Hcrc : crc_range crc.

Definition index_is (p : params) (base : Z) (idx : option bytes) (items : list item) : Prop :=
  match idx with None => True | Some ib => exists iv, index_read p base ib = Ok (iv, items) end.

Lemma idx_after_same p base idx items : index_is p base idx items -> idx_after p base idx items = idx.
Proof.
  destruct idx as [ib|]; [|reflexivity]. intros (iv & E). cbn [idx_after]. rewrite E.
  now rewrite (proj2 (items_eqb_eq items items) eq_refl).
Qed.

Lemma idx_after_cases p base idx items :
  match idx_after p base idx items with
  | None => True
  | Some ib => (idx = Some ib /\ index_is p base idx items) \/ exists iv, ib = enc_index iv p items
  end.
Proof.
  destruct idx as [ib|]; [|exact I]. cbn [idx_after]. destruct (index_read p base ib) as [[iv have]|] eqn:E; [|exact I].
  destruct (list_eqb item_eqb have items) eqn:Eq; [|right; now exists iv].
  apply items_eqb_eq in Eq. subst have. left. split; [reflexivity|]. exists iv. exact E.
Qed.

Lemma recover_of_scan p base b v recs e fin idx :
  log_version b base = Ok v -> scan_log crc (scan_fuel_of b) v b (hdr_size v) = (recs, e, fin) -> fin <> ScanFuel ->
  recover_bytes crc H p base b idx =
    Ok (match fin with ScanCorrupt => enc_log crc v (map snd recs) | _ => b end, idx_after p base idx (scan_items H p recs)).
Proof.
  intros Ev Es Hnf. unfold recover_bytes, idx_after. rewrite Ev. cbn [bind]. rewrite Es.
  destruct fin; [| |congruence];
    (destruct idx as [ib|]; [|reflexivity]; destruct (index_read p base ib) as [[iv have]|]; [|reflexivity];
     destruct (list_eqb item_eqb have (scan_items H p recs)); reflexivity).
Qed.

Lemma recover_clean p base v ms idx :
  Forall msg_ok ms -> log_version (enc_log crc v ms) base = Ok v ->
  recover_bytes crc H p base (enc_log crc v ms) idx =
    Ok (enc_log crc v ms, idx_after p base idx (scan_items H p (placed v (hdr_size v) ms))).
Proof.
  intros Hall Hv. apply (recover_of_scan p base _ v _ _ ScanEOF idx Hv (scan_encoded_log crc v ms Hcrc Hall)). discriminate.
Qed.

Lemma recover_scan p base b idx newlog idx' :
  bytes_ok b -> recover_bytes crc H p base b idx = Ok (newlog, idx') ->
  exists v ms e fin rest,
    log_version b base = Ok v /\ scan_log crc (scan_fuel_of b) v b (hdr_size v) = (placed v (hdr_size v) ms, e, fin) /\
    Forall msg_ok ms /\ newlog = enc_log crc v ms /\ b = newlog ++ rest /\
    idx' = idx_after p base idx (scan_items H p (placed v (hdr_size v) ms)) /\
    match fin with
    | ScanEOF => rest = []
    | ScanCorrupt => exists err, read_rec crc v b (zlen newlog) = Err err /\ err <> EEOF
    | ScanFuel => False
    end.
Proof.
  intros Hok E. destruct (log_version b base) as [v|] eqn:Ev; [|unfold recover_bytes in E; rewrite Ev in E; discriminate].
  destruct (scan_log crc (scan_fuel_of b) v b (hdr_size v)) as [[recs e] fin] eqn:Es.
  destruct (scan_file crc v b base _ _ _ _ Hok Ev Es) as (Hr & Hall & He & Hele & Hsub & Hfin).
  assert (Hnf : fin <> ScanFuel) by (intros ->; cbv iota in Hfin; pose proof (scan_fuel_enough b v); lia).
  rewrite (recover_of_scan p base b v recs e fin idx Ev Es Hnf) in E. injection E as Hnl Hi'.
  set (ms := map snd recs) in *. rewrite Hr in Hi', Es.
  assert (He0 : 0 <= e). { rewrite He. unfold log_size. pose proof (recs_size_nonneg v ms). destruct v; cbn [hdr_size]; lia. }
  pose proof (sub_split b e ltac:(lia)) as Hsp. rewrite Hsub in Hsp.
  assert (Hrest : fin = ScanEOF -> sub b e (zlen b - e) = []) by (intros ->; rewrite Hfin, Z.sub_diag; apply sub_zero).
  assert (Hnew : newlog = enc_log crc v ms).
  { subst newlog. destruct fin; [|reflexivity|congruence]. rewrite Hsp at 1. rewrite Hrest by reflexivity. apply app_nil_r. }
  exists v, ms, e, fin, (sub b e (zlen b - e)). split; [reflexivity|]. split; [exact Es|]. split; [exact Hall|].
  split; [exact Hnew|]. split; [rewrite Hnew; exact Hsp|]. split; [symmetry; exact Hi'|].
  destruct fin; [now apply Hrest| |congruence]. rewrite Hnew, enc_log_length, <- He. exact Hfin.
Qed.

(* C07: Recover keeps precisely the longest prefix of valid records: the new log file is a prefix of the old one, and
   what follows it there does not begin with the encoding of any message; the index afterwards is absent, the
   untouched old one if it reads as the derived items, or the encoding of the derived items *)
Theorem recover_keeps_valid_prefix p base b idx newlog idx' :
  bytes_ok b -> recover_bytes crc H p base b idx = Ok (newlog, idx') ->
  exists v ms rest,
    log_version b base = Ok v /\ Forall msg_ok ms /\ newlog = enc_log crc v ms /\ b = newlog ++ rest /\
    (forall m rest', msg_ok m -> rest <> enc_rec crc v m ++ rest') /\
    let items := scan_items H p (placed v (hdr_size v) ms) in
    match idx' with
    | None => True
    | Some ib => (idx = Some ib /\ index_is p base idx items) \/ exists iv, ib = enc_index iv p items
    end.
Proof.
  intros Hok E.
  destruct (recover_scan p base b idx newlog idx' Hok E) as (v & ms & e & fin & rest & Ev & _ & Hall & Hnl & Hb & Hi' & Hfin).
  exists v, ms, rest. split; [exact Ev|]. split; [exact Hall|]. split; [exact Hnl|]. split; [exact Hb|].
  split; [|cbv zeta; rewrite Hi'; apply idx_after_cases].
  intros m rest' Hm Hc. destruct fin; [| |contradiction].
  - (* the whole file parsed: nothing follows *)
    rewrite Hfin in Hc. apply (f_equal zlen) in Hc. rewrite zlen_app, enc_rec_length in Hc.
    pose proof (rec_size_pos v m). pose proof (zlen_nonneg rest'). change (zlen []) with 0 in Hc. lia.
  - destruct Hfin as (err & Herr & _).
    rewrite Hb, Hc, (read_rec_roundtrip crc v newlog m rest' Hcrc Hm) in Herr. discriminate.
Qed.

(* a segment file is named after its first record, so the encoding of the records at its beginning has its version *)
Lemma prefix_version base b v ms rest :
  0 <= base < two63 -> (forall m nxt, read_rec crc v b (hdr_size v) = Ok (m, nxt) -> moff m = base) ->
  Forall msg_ok ms -> b = enc_log crc v ms ++ rest ->
  match ms with [] => True | m :: _ => moff m = base end /\ log_version (enc_log crc v ms) base = Ok v.
Proof.
  intros Hbase Hnamed Hall Hb.
  assert (Hfirst : match ms with [] => True | m :: _ => moff m = base end).
  { destruct ms as [|m r]; [exact I|]. apply Forall_cons_iff in Hall. destruct Hall as [Hm _].
    apply (Hnamed m (hdr_size v + rec_size v m)).
    rewrite Hb. unfold enc_log. cbn [map concat]. rewrite <- !app_assoc.
    rewrite <- (enc_log_header_length v). apply read_rec_roundtrip; assumption. }
  split; [exact Hfirst|]. apply log_version_enc. intros _. destruct ms as [|m r]; [exact I|]. split; [exact Hfirst|exact Hbase].
Qed.

(* undamaged segment: the log file is the encoding of messages, the index absent or one that reads as the derived items *)
Theorem recover_noop p base v ms idx :
  Forall msg_ok ms -> log_version (enc_log crc v ms) base = Ok v ->
  index_is p base idx (scan_items H p (placed v (hdr_size v) ms)) ->
  recover_bytes crc H p base (enc_log crc v ms) idx = Ok (enc_log crc v ms, idx).
Proof. intros Hall Hv Hidx. rewrite (recover_clean p base v ms idx Hall Hv), (idx_after_same _ _ _ _ Hidx). reflexivity. Qed.

Theorem recover_clean_log p base v ms idx :
  Forall msg_ok ms -> log_version (enc_log crc v ms) base = Ok v ->
  exists idx', recover_bytes crc H p base (enc_log crc v ms) idx = Ok (enc_log crc v ms, idx').
Proof. intros Hall Hv. eexists. now apply recover_clean. Qed.

Lemma check_clean p base v ms idx :
  Forall msg_ok ms -> log_version (enc_log crc v ms) base = Ok v ->
  index_is p base idx (scan_items H p (placed v (hdr_size v) ms)) ->
  check_bytes crc H p base (enc_log crc v ms) idx = Ok tt.
Proof.
  intros Hall Hv Hidx. unfold check_bytes. rewrite Hv. cbn [bind]. rewrite (scan_encoded_log crc v ms Hcrc Hall).
  destruct idx as [ib|]; [|reflexivity]. destruct Hidx as (iv & Hir). rewrite Hir. cbn [bind snd].
  now rewrite (proj2 (items_eqb_eq _ _) eq_refl).
Qed.

(* C07: Check succeeds if and only if the log file parses completely and the index file, if present, reads as the
   index derived from it *)
Theorem check_iff p base b idx :
  bytes_ok b ->
  (check_bytes crc H p base b idx = Ok tt <->
   exists v ms, log_version b base = Ok v /\ Forall msg_ok ms /\ b = enc_log crc v ms /\
                index_is p base idx (scan_items H p (placed v (hdr_size v) ms))).
Proof.
  intros Hok. split; [|intros (v & ms & Hv & Hall & -> & Hidx); now apply check_clean].
  unfold check_bytes. destruct (log_version b base) as [v|] eqn:Ev; [|discriminate]. cbn [bind].
  destruct (scan_log crc (scan_fuel_of b) v b (hdr_size v)) as [[recs e] fin] eqn:Es.
  destruct (scan_file crc v b base _ _ _ _ Hok Ev Es) as (Hr & Hall & He & Hele & Hsub & Hfin).
  destruct fin; try discriminate. intros E. exists v, (map snd recs). split; [reflexivity|]. split; [exact Hall|].
  split; [rewrite <- Hsub, Hfin; symmetry; apply sub_0_all|].
  destruct idx as [ib|]; [|exact I]. destruct (index_read p base ib) as [[iv have]|] eqn:Eir; [|discriminate]. cbn [bind snd] in E.
  destruct (list_eqb item_eqb (scan_items H p recs) have) eqn:Eq; [|discriminate].
  apply items_eqb_eq in Eq. exists iv. rewrite <- Hr. now subst have.
Qed.

Lemma enc_log_app v ms ms' : enc_log crc v (ms ++ ms') = enc_log crc v ms ++ concat (map (enc_rec crc v) ms').
Proof. unfold enc_log. now rewrite map_app, concat_app, app_assoc. Qed.

Theorem check_after_append p base v ms ms' idx :
  Forall msg_ok ms -> Forall msg_ok ms' ->
  log_version (enc_log crc v (ms ++ ms')) base = Ok v ->
  index_is p base idx (scan_items H p (placed v (hdr_size v) (ms ++ ms'))) ->
  check_bytes crc H p base (enc_log crc v ms ++ concat (map (enc_rec crc v) ms')) idx = Ok tt.
Proof.
  intros Hm Hm' Hv Hidx. rewrite <- enc_log_app. apply check_clean; [apply Forall_app; split; assumption|exact Hv|exact Hidx].
Qed.

End RecoverCheck.

Definition item_ok (p : params) (it : item) : Prop :=
  - two63 <= ioff it < two63 /\ - two63 <= ipos it < two63 /\
  (if ptimes p then - two63 <= its it < two63 else its it = 0) /\
  (if pkeys p then 0 <= ihash it < two64z else ihash it = 0).

Lemma item_size_min p : 16 <= item_size p.
Proof. unfold item_size. destruct (ptimes p), (pkeys p); lia. Qed.

Lemma dec_items_step p f it rest :
  item_ok p it -> dec_items p (S f) (enc_item p it ++ rest) = it :: dec_items p f rest.
Proof.
  intros (Ho & Hp & Ht & Hh). pose proof (enc_item_length p it) as Hl. pose proof (item_size_min p) as Hisz.
  cbn [dec_items]. destruct (enc_item p it ++ rest) as [|x0 b0] eqn:Eb.
  { apply (f_equal zlen) in Eb. rewrite zlen_app in Eb. pose proof (zlen_nonneg rest). change (zlen []) with 0 in Eb. lia. }
  rewrite <- Eb. clear Eb x0 b0. rewrite (sub_take (enc_item p it) rest) by lia.
  replace (Z.to_nat (item_size p)) with (length (enc_item p it)) by (unfold zlen in Hl; lia).
  rewrite skipn_app_exact_l. f_equal. clear Hl Hisz.
  unfold enc_item. destruct it as [o ps t h]. cbn [ioff ipos its ihash] in *.
  rewrite sub_take, sub_skip, sub_take, !i64_debe_be by (rewrite ?zlen_be; lia).
  destruct (ptimes p), (pkeys p); cbn [app].
  - rewrite 2 sub_skip, sub_take, 3 sub_skip, sub_all by (rewrite ?zlen_be; lia).
    rewrite i64_debe_be, debe_be_small by assumption. reflexivity.
  - rewrite 2 sub_skip, sub_take by (rewrite ?zlen_be; lia). rewrite i64_debe_be by assumption. now subst h.
  - rewrite 2 sub_skip, sub_all by (rewrite ?zlen_be; lia). rewrite debe_be_small by assumption. now subst t.
  - now subst t h.
Qed.

Lemma dec_items_enc p : forall items fuel,
  Forall (item_ok p) items -> (length items <= fuel)%nat ->
  dec_items p fuel (concat (map (enc_item p) items)) = items.
Proof.
  induction items as [|it r IH]; intros fuel Hall Hf.
  - destruct fuel; reflexivity.
  - destruct fuel; [cbn in Hf; lia|]. inversion Hall as [|? ? Hit Hr]; subst. cbn [map concat].
    rewrite dec_items_step by assumption. f_equal. apply IH; [assumption|cbn in Hf; lia].
Qed.

Lemma zlen_concat_items p items : zlen (concat (map (enc_item p) items)) = zlen items * item_size p.
Proof.
  induction items as [|it r IH]; [reflexivity|]. cbn [map concat]. rewrite zlen_app, enc_item_length, IH, zlen_cons. ring.
Qed.

Lemma index_data_read p (v : ver) items :
  Forall (item_ok p) items ->
  let data := concat (map (enc_item p) items) in
  (if negb (zlen data mod item_size p =? 0) then Err EIndexCorrupted else Ok (v, dec_items p (length data) data)) = Ok (v, items).
Proof.
  intros Hall data. pose proof (zlen_concat_items p items) as Hzl. pose proof (item_size_min p). fold data in Hzl.
  rewrite Hzl, Z.mod_mul by lia. cbn [negb Z.eqb]. f_equal. f_equal. apply dec_items_enc; [exact Hall|].
  unfold zlen in Hzl. nia.
Qed.

Lemma idx_version_be8 base rest p : 0 <= base < two63 -> idx_version (be 8 base ++ rest) base p = Ok V1.
Proof.
  intros Hb. pose proof (zlen_nonneg rest). unfold idx_version. rewrite zlen_app, zlen_be.
  destruct (Z.of_nat 8 + zlen rest =? 0) eqn:E0; [lia|]. destruct (Z.of_nat 8 + zlen rest <? 8) eqn:E8; [lia|].
  unfold idx_magic. rewrite be8_not_magic by exact Hb.
  rewrite (sub_take (be 8 base) rest), i64_debe_be, Z.eqb_refl by (rewrite ?zlen_be; unfold two63 in *; lia). reflexivity.
Qed.

Lemma idx_version_enc_v2 p base data : idx_version (enc_idx_header V2 p ++ data) base p = Ok V2.
Proof.
  pose proof (zlen_nonneg data). unfold idx_version. rewrite zlen_app, (sub_take (enc_idx_header V2 p) data) by reflexivity.
  change (zlen (enc_idx_header V2 p)) with 8.
  destruct (8 + zlen data =? 0) eqn:E0; [lia|]. destruct (8 + zlen data <? 8) eqn:E8; [lia|].
  destruct p as [[] []]; reflexivity.
Qed.

Theorem index_read_enc p base v items :
  Forall (item_ok p) items ->
  (v = V1 -> match items with [] => True | it :: _ => ioff it = base /\ 0 <= base end) ->
  index_read p base (enc_index v p items) = Ok (v, items).
Proof.
  intros Hall Hv1. unfold enc_index, index_read. destruct v.
  - cbn [enc_idx_header app]. destruct items as [|it r]; [reflexivity|]. destruct (Hv1 eq_refl) as [<- Hb0].
    pose proof (Forall_inv Hall) as (Ho & _). pose proof (zlen_concat_items p (it :: r)) as Hzl.
    pose proof (item_size_min p). pose proof (zlen_nonneg r). rewrite zlen_cons in Hzl.
    destruct (zlen _ =? 0) eqn:E0; [nia|]. clear E0 Hzl.
    replace (idx_version _ (ioff it) p) with (Ok V1); [exact (index_data_read p V1 (it :: r) Hall)|].
    cbn [map concat]. unfold enc_item. rewrite <- !app_assoc. symmetry. apply idx_version_be8. lia.
  - set (data := concat (map (enc_item p) items)). pose proof (zlen_nonneg data).
    rewrite zlen_app. change (zlen (enc_idx_header V2 p)) with 8. destruct (8 + zlen data =? 0) eqn:E0; [lia|].
    rewrite idx_version_enc_v2. cbn [bind]. change 8%nat with (length (enc_idx_header V2 p)). rewrite skipn_app_exact_l.
    exact (index_data_read p V2 items Hall).
Qed.

Section RecoverThenCheck.
Variables crc H : bytes -> Z.
Hypothesis Hcrc : crc_range crc.
Hypothesis Hhash : forall k, 0 <= H k < two64z.

Lemma scan_items_go_ok p v : forall ms pos ts,
  Forall msg_ok ms -> 0 <= pos -> pos + recs_size v ms < two63 -> - two63 <= ts < two63 ->
  Forall (item_ok p)
    ((fix go (l : list (Z * msg)) (ts : Z) : list item :=
        match l with
        | [] => []
        | (pos, m) :: r => let it := new_item H p m pos ts in it :: go r (its it)
        end) (placed v pos ms) ts).
Proof.
  induction ms as [|m r IH]; intros pos ts Hall Hpos Hend Hts; [constructor|].
  apply Forall_cons_iff in Hall. destruct Hall as [Hm Hr]. destruct Hm as (Ho & Ht & Hsz).
  cbn [placed recs_size] in *. pose proof (rec_size_pos v m). pose proof (recs_size_nonneg v r).
  constructor.
  - unfold item_ok, new_item. cbn [ioff ipos its ihash]. split; [assumption|]. split; [unfold two63 in *; lia|].
    split; [destruct (ptimes p); [unfold two63 in *; lia|reflexivity]|]. destruct (pkeys p); [apply Hhash|reflexivity].
  - apply IH; try assumption; try lia. unfold new_item. cbn [its]. destruct (ptimes p); unfold two63 in *; lia.
Qed.

Lemma scan_items_ok p v ms pos :
  Forall msg_ok ms -> 0 <= pos -> pos + recs_size v ms < two63 ->
  Forall (item_ok p) (scan_items H p (placed v pos ms)).
Proof. intros. unfold scan_items. apply scan_items_go_ok; try assumption. unfold two63. lia. Qed.

Lemma derived_index_is p base v ms iv :
  Forall msg_ok ms -> hdr_size v + recs_size v ms < two63 -> 0 <= base ->
  match ms with [] => True | m :: _ => moff m = base end ->
  index_is p base (Some (enc_index iv p (scan_items H p (placed v (hdr_size v) ms)))) (scan_items H p (placed v (hdr_size v) ms)).
Proof.
  intros Hall Hsize Hbase Hfirst. exists iv. apply index_read_enc.
  - apply scan_items_ok; [exact Hall|destruct v; cbn; lia|exact Hsize].
  - intros ->. unfold scan_items. destruct ms as [|m r]; [exact I|]. cbn [placed]. cbn [ioff new_item]. split; [exact Hfirst|exact Hbase].
Qed.

Theorem recover_then_check p base b idx newlog idx' :
  bytes_ok b -> zlen b < two63 -> 0 <= base < two63 ->
  (* the segment file is named after its first record *)
  (forall v m nxt, log_version b base = Ok v -> read_rec crc v b (hdr_size v) = Ok (m, nxt) -> moff m = base) ->
  recover_bytes crc H p base b idx = Ok (newlog, idx') ->
  check_bytes crc H p base newlog idx' = Ok tt /\
  recover_bytes crc H p base newlog idx' = Ok (newlog, idx').
Proof.
  intros Hok Hlen Hbase Hnamed Hrec.
  destruct (recover_keeps_valid_prefix crc H Hcrc p base b idx newlog idx' Hok Hrec)
    as (v & ms & rest & Hv & Hall & -> & Hb & _ & Hidx).
  cbv zeta in Hidx. set (items := scan_items H p (placed v (hdr_size v) ms)) in *.
  destruct (prefix_version crc Hcrc base b v ms rest Hbase (fun m nxt => Hnamed v m nxt Hv) Hall Hb) as [Hfirst Hv'].
  assert (Hix : index_is p base idx' items).
  { destruct idx' as [ib|]; [|exact I]. destruct Hidx as [[-> Hi]|(iv & ->)]; [exact Hi|].
    apply derived_index_is; [exact Hall| |lia|exact Hfirst].
    apply (f_equal zlen) in Hb. rewrite zlen_app, enc_log_length in Hb. pose proof (zlen_nonneg rest). unfold log_size in Hb. lia. }
  split; [now apply check_clean|now apply recover_noop].
Qed.

End RecoverThenCheck.

Section Torn.
Variables crc H : bytes -> Z.
Hypothesis Hcrc : crc_range crc.

Definition proper_prefix (t x : bytes) : Prop := exists tl, x = t ++ tl /\ tl <> [] /\ t <> [].

Lemma zlen_pos (x : bytes) : x <> [] -> 0 < zlen x.
Proof. destruct x; [congruence|]. rewrite zlen_cons. pose proof (zlen_nonneg x). lia. Qed.

Lemma app_eq_app_le (a b c d : bytes) : a ++ b = c ++ d -> zlen a <= zlen c -> exists c', c = a ++ c' /\ b = c' ++ d.
Proof.
  revert c. induction a as [|x a IH]; intros c E Hl; [exists c; split; [reflexivity|exact E]|].
  destruct c as [|y c]; [rewrite zlen_cons in Hl; pose proof (zlen_nonneg a); change (zlen []) with 0 in Hl; lia|].
  injection E as -> E. rewrite !zlen_cons in Hl. destruct (IH c E ltac:(lia)) as (c' & -> & ->). exists c'. split; reflexivity.
Qed.

(* a record cut anywhere inside is rejected as corruption: not read as data, not taken for the clean end of the file *)
Lemma torn_rejected v pre m t :
  msg_ok m -> proper_prefix t (enc_rec crc v m) -> read_rec crc v (pre ++ t) (zlen pre) = Err ELogCorrupted.
Proof.
  intros (Ho & Htm & Hsz) (tl & Hx & Htl & Ht). apply zlen_pos in Htl, Ht.
  destruct (Z.lt_ge_cases (zlen t) 28) as [Hshort|Hfull].
  - (* not even a header *)
    rewrite read_rec_eq. cbv zeta. rewrite sub_app_skip, zlen_sub by lia.
    destruct (_ =? 0) eqn:E0; [lia|]. destruct (_ <? 28) eqn:E28; [reflexivity|lia].
  - (* the header is complete: the lengths in it are the real ones, and the payload is short *)
    pose proof (zlen_nonneg (mkey m)). pose proof (zlen_nonneg (mval m)). destruct v.
    + rewrite enc_rec_v1_eq in Hx. apply app_eq_app_le in Hx; [|rewrite !zlen_app, !zlen_be; lia].
      destruct Hx as (t' & -> & Hx). apply (f_equal zlen) in Hx. rewrite !zlen_app in Hx.
      rewrite read_rec_v1_fields by apply zlen_be. apply read_fields_short; try lia. rewrite !zlen_app, !zlen_be. lia.
    + rewrite enc_rec_v2_eq in Hx. apply app_eq_app_le in Hx; [|rewrite !zlen_app, !zlen_be; lia].
      destruct Hx as (t' & -> & Hx). apply (f_equal zlen) in Hx. rewrite !zlen_app in Hx.
      rewrite read_rec_v2_fields by apply zlen_be. apply read_fields_short; try lia. rewrite !zlen_app, !zlen_be. lia.
Qed.

(* a crash part-way through an append leaves a clean log followed by a proper prefix of the next record: Recover cuts
   exactly that *)
Theorem recover_torn p base v ms m t idx :
  Forall msg_ok ms -> msg_ok m -> proper_prefix t (enc_rec crc v m) ->
  log_version (enc_log crc v ms ++ t) base = Ok v ->
  exists idx', recover_bytes crc H p base (enc_log crc v ms ++ t) idx = Ok (enc_log crc v ms, idx').
Proof.
  intros Hall Hm Ht Hv.
  assert (Hscan : scan_log crc (scan_fuel_of (enc_log crc v ms ++ t)) v (enc_log crc v ms ++ t) (hdr_size v) =
                  (placed v (hdr_size v) ms, log_size v ms, ScanCorrupt)).
  { unfold enc_log, log_size. rewrite <- app_assoc, <- (enc_log_header_length v).
    apply (scan_log_encoded crc v ms (enc_log_header v) t _ ELogCorrupted Hcrc Hall (scan_fuel_enc crc v ms _ t)).
    rewrite app_assoc, <- zlen_concat_enc with (crc := crc), <- zlen_app. exact (torn_rejected v _ m t Hm Ht). }
  eexists. rewrite (recover_of_scan crc H p base _ v _ _ _ idx Hv Hscan) by discriminate. now rewrite map_snd_placed.
Qed.

End Torn.

Section Cut.
Variables crc H : bytes -> Z.
Hypothesis Hcrc : crc_range crc.

Lemma cut_inside v : forall ms n, 0 <= n <= recs_size v ms ->
  exists ms1 ms2 t, ms = ms1 ++ ms2 /\
    firstn (Z.to_nat n) (concat (map (enc_rec crc v) ms)) = concat (map (enc_rec crc v) ms1) ++ t /\
    (t = [] \/ exists m r, ms2 = m :: r /\ proper_prefix t (enc_rec crc v m)) /\
    recs_size v ms1 <= n /\ (forall m r, ms2 = m :: r -> n < recs_size v ms1 + rec_size v m).
Proof.
  induction ms as [|m r IH]; intros n Hn.
  - cbn [recs_size] in Hn. exists [], [], []. replace n with 0 by lia. cbn. repeat split; try lia; try tauto. intros; discriminate.
  - cbn [recs_size map concat] in *. pose proof (rec_size_pos v m) as H28. pose proof (enc_rec_length crc v m) as Hl.
    destruct (Z.lt_ge_cases n (rec_size v m)) as [Hlt|Hge].
    + exists [], (m :: r), (firstn (Z.to_nat n) (enc_rec crc v m)). cbn [app map concat recs_size].
      split; [reflexivity|]. split.
      { rewrite firstn_app. replace (Z.to_nat n - length (enc_rec crc v m))%nat with O by (unfold zlen in Hl; lia).
        cbn [firstn]. now rewrite app_nil_r. }
      split.
      { destruct (Z.eq_dec n 0) as [->|Hn0]; [left; reflexivity|]. right. exists m, r. split; [reflexivity|].
        exists (skipn (Z.to_nat n) (enc_rec crc v m)). split; [symmetry; apply firstn_skipn|]. split.
        - intro Hc. apply (f_equal (@length _)) in Hc. rewrite skipn_length in Hc. unfold zlen in Hl. cbn in Hc. lia.
        - intro Hc. apply (f_equal (@length _)) in Hc. rewrite firstn_length in Hc. unfold zlen in Hl. cbn in Hc. lia. }
      split; [lia|]. intros m' r' E. injection E as <- <-. lia.
    + destruct (IH (n - rec_size v m) ltac:(lia)) as (ms1 & ms2 & t & Hms & Hf & Ht & Hle & Hnext).
      exists (m :: ms1), ms2, t. cbn [app map concat recs_size]. split; [now rewrite Hms|]. split.
      { rewrite firstn_app. rewrite firstn_all2 by (unfold zlen in Hl; lia). rewrite <- app_assoc. f_equal.
        replace (Z.to_nat n - length (enc_rec crc v m))%nat with (Z.to_nat (n - rec_size v m)) by (unfold zlen in Hl; lia). exact Hf. }
      split; [exact Ht|]. split; [lia|]. intros m' r' E. specialize (Hnext m' r' E). lia.
Qed.

(* power loss keeps a prefix of each file: of a clean log cut anywhere after its header Recover keeps exactly the
   records that lie entirely below the cut *)
Theorem recover_cut p base v ms n idx :
  Forall msg_ok ms -> hdr_size v <= n <= log_size v ms ->
  log_version (firstn (Z.to_nat n) (enc_log crc v ms)) base = Ok v ->
  exists ms1 ms2 idx', ms = ms1 ++ ms2 /\
    recover_bytes crc H p base (firstn (Z.to_nat n) (enc_log crc v ms)) idx = Ok (enc_log crc v ms1, idx') /\
    log_size v ms1 <= n /\ (forall m r, ms2 = m :: r -> n < log_size v ms1 + rec_size v m).
Proof.
  intros Hall Hn Hv. unfold log_size in Hn.
  destruct (cut_inside v ms (n - hdr_size v) ltac:(lia)) as (ms1 & ms2 & t & Hms & Hf & Ht & Hle & Hnext).
  assert (Hcut : firstn (Z.to_nat n) (enc_log crc v ms) = enc_log crc v ms1 ++ t).
  { unfold enc_log. rewrite firstn_app. pose proof (enc_log_header_length v) as Hhl.
    rewrite firstn_all2 by (unfold zlen in Hhl; lia). rewrite <- app_assoc. f_equal.
    replace (Z.to_nat n - length (enc_log_header v))%nat with (Z.to_nat (n - hdr_size v)) by (unfold zlen in Hhl; lia). exact Hf. }
  assert (Hall1 : Forall msg_ok ms1) by (rewrite Hms in Hall; apply Forall_app in Hall; tauto).
  exists ms1, ms2. rewrite Hcut in *.
  assert (Hr : exists idx', recover_bytes crc H p base (enc_log crc v ms1 ++ t) idx = Ok (enc_log crc v ms1, idx')).
  { destruct Ht as [->|(m & r & Hm2 & Hpp)].
    - rewrite app_nil_r in *. exact (recover_clean_log crc H Hcrc p base v ms1 idx Hall1 Hv).
    - assert (Hm : msg_ok m) by (rewrite Hms, Hm2 in Hall; apply Forall_app in Hall; destruct Hall as [_ Ha]; apply Forall_cons_iff in Ha; tauto).
      exact (recover_torn crc H Hcrc p base v ms1 m t idx Hall1 Hm Hpp Hv). }
  destruct Hr as (idx' & Hr). exists idx'. split; [exact Hms|]. split; [exact Hr|]. unfold log_size. split; [lia|].
  intros m r E. specialize (Hnext m r E). lia.
Qed.

End Cut.

(* known finding F14, on the model: a log file of 1..7 bytes (a V1 head segment whose first record
   was torn inside its first 8 bytes, or a torn V2 file header) is refused by Recover instead of being
   truncated to the empty valid prefix *)
Theorem recover_short_file_refused crc H p base (b : bytes) idx :
  0 < zlen b < 8 -> recover_bytes crc H p base b idx = Err ELogCorrupted.
Proof.
  intros Hb. unfold recover_bytes, log_version. destruct (zlen b =? 0) eqn:E0; [lia|]. destruct (zlen b <? 8) eqn:E8; [reflexivity|lia].
Qed.

(* if the first part ms0 of the log ends at or before the cut, ms0 is a prefix of what is kept *)
Lemma prefix_by_size v : forall ms0 ms1 ms2 ms0' n,
  ms1 ++ ms2 = ms0 ++ ms0' -> recs_size v ms0 <= n ->
  (forall m r, ms2 = m :: r -> n < recs_size v ms1 + rec_size v m) ->
  exists x, ms1 = ms0 ++ x.
Proof.
  induction ms0 as [|a ms0 IH]; intros ms1 ms2 ms0' n E Hle Hnext; [exists ms1; reflexivity|].
  cbn [recs_size] in Hle. pose proof (recs_size_nonneg v ms0). pose proof (rec_size_pos v a).
  destruct ms1 as [|b ms1].
  - cbn [app] in E. specialize (Hnext a (ms0 ++ ms0') E). cbn [recs_size] in Hnext. lia.
  - cbn [app] in E. injection E as -> E.
    destruct (IH ms1 ms2 ms0' (n - rec_size v a) E ltac:(lia)) as (x & ->).
    + intros m r Em. specialize (Hnext m r Em). cbn [recs_size] in Hnext. lia.
    + exists x. reflexivity.
Qed.

Theorem recover_cut_keeps_synced crc H p base v ms n idx ms0 ms0' :
  crc_range crc -> Forall msg_ok ms -> hdr_size v <= n <= log_size v ms ->
  log_version (firstn (Z.to_nat n) (enc_log crc v ms)) base = Ok v ->
  ms = ms0 ++ ms0' -> log_size v ms0 <= n ->
  exists kept lost idx', ms = kept ++ lost /\ (exists x, kept = ms0 ++ x) /\
    recover_bytes crc H p base (firstn (Z.to_nat n) (enc_log crc v ms)) idx = Ok (enc_log crc v kept, idx').
Proof.
  intros Hcrc Hall Hn Hv Hms Hsync.
  destruct (recover_cut crc H Hcrc p base v ms n idx Hall Hn Hv) as (ms1 & ms2 & idx' & Hsplit & Hr & Hle & Hnext).
  exists ms1, ms2, idx'. split; [exact Hsplit|]. split; [|exact Hr].
  unfold log_size in *. apply (prefix_by_size v ms0 ms1 ms2 ms0' (n - hdr_size v)); [congruence|lia|].
  intros m r E. specialize (Hnext m r E). lia.
Qed.
