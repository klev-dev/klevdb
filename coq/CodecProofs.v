(* the byte layouts: big-endian integers, slices, sizes, and decoder (readV1/readV2 transcription) against encoder
   (documented layout): what was encoded is read back, anywhere in a file, and what is read is byte for byte the encoding
   of what is returned.  The two decoders differ only in where the header fields lie: accept, reject and round trip are
   proved once, about [read_fields]. *)
From KV Require Import Base Model ListAux SearchProofs SpecFacts Codec.
From Coq Require Import ZifyBool ZifyNat.

Lemma be_aux_length n : forall z acc, length (be_aux n z acc) = (n + length acc)%nat.
Proof. induction n as [|n IH]; intros z acc; cbn [be_aux]; [reflexivity|]. rewrite IH. cbn [length]. lia. Qed.

Lemma be_length n z : length (be n z) = n.
Proof. unfold be. rewrite be_aux_length. apply Nat.add_0_r. Qed.

Lemma zlen_be n z : zlen (be n z) = Z.of_nat n.
Proof. unfold zlen. now rewrite be_length. Qed.

Lemma be_aux_app n : forall z acc, be_aux n z acc = be_aux n z [] ++ acc.
Proof.
  induction n as [|n IH]; intros z acc; cbn [be_aux]; [reflexivity|].
  rewrite (IH (z / 256) (Z.to_N (z mod 256) :: acc)), (IH (z / 256) [Z.to_N (z mod 256)]).
  now rewrite <- app_assoc.
Qed.

Lemma be_snoc n z : be (S n) z = be n (z / 256) ++ [Z.to_N (z mod 256)].
Proof. unfold be. cbn [be_aux]. now rewrite be_aux_app. Qed.

Lemma be_cons n : forall z, be (S n) z = Z.to_N ((z / 256 ^ Z.of_nat n) mod 256) :: be n z.
Proof.
  induction n as [|n IH]; intros z.
  - rewrite be_snoc. change (256 ^ Z.of_nat 0) with 1. now rewrite Z.div_1_r.
  - rewrite be_snoc, IH, (be_snoc n). cbn [app]. f_equal. f_equal. f_equal.
    rewrite Z.div_div, Nat2Z.inj_succ, Z.pow_succ_r by lia. reflexivity.
Qed.

Lemma debe_app a b : debe (a ++ b) = debe a * 256 ^ zlen b + debe b.
Proof.
  unfold debe. rewrite fold_left_app.
  generalize (fold_left (fun a0 b0 => a0 * 256 + Z.of_N b0) a 0) as x.
  induction b as [|y b IH]; intros x.
  - cbn. lia.
  - cbn [fold_left]. rewrite IH, (IH (0 * 256 + Z.of_N y)), zlen_cons.
    rewrite Z.pow_add_r by (pose proof (zlen_nonneg b); lia). ring.
Qed.

Lemma debe_snoc y d : debe (y ++ [d]) = debe y * 256 + Z.of_N d.
Proof. apply (debe_app y [d]). Qed.

Lemma debe_nonneg x : 0 <= debe x.
Proof.
  induction x as [|d y IH] using rev_ind; [unfold debe; cbn; lia|]. rewrite debe_snoc. lia.
Qed.

Lemma debe_be n : forall z, debe (be n z) = z mod 256 ^ Z.of_nat n.
Proof.
  induction n as [|n IH]; intros z; [now rewrite Z.mod_1_r|].
  rewrite be_snoc, debe_snoc, IH, Z2N.id by (apply Z.mod_pos_bound; lia).
  rewrite Nat2Z.inj_succ, Z.pow_succ_r, Z.rem_mul_r by lia. ring.
Qed.

Lemma debe_be_small n z : 0 <= z < 256 ^ Z.of_nat n -> debe (be n z) = z.
Proof. intros Hz. rewrite debe_be. now apply Z.mod_small. Qed.

Definition bytes_ok (b : bytes) : Prop := Forall (fun x => (x < 256)%N) b.

Lemma bytes_ok_snoc y d : bytes_ok (y ++ [d]) -> bytes_ok y /\ 0 <= Z.of_N d < 256.
Proof. intros Hok. apply Forall_app in Hok. destruct Hok as [Hy Hd]. inversion Hd; subst. split; [exact Hy|lia]. Qed.

Lemma debe_bound x : bytes_ok x -> 0 <= debe x < 256 ^ zlen x.
Proof.
  induction x as [|d y IH] using rev_ind; intros Hok; [unfold debe, zlen; cbn; lia|].
  apply bytes_ok_snoc in Hok. destruct Hok as [Hy Hd]. specialize (IH Hy).
  rewrite debe_snoc, zlen_app, Z.pow_add_r by (try apply zlen_nonneg; discriminate).
  change (256 ^ zlen [d]) with 256. lia.
Qed.

Lemma be_debe x : bytes_ok x -> be (length x) (debe x) = x.
Proof.
  induction x as [|d y IH] using rev_ind; intros Hok; [reflexivity|].
  apply bytes_ok_snoc in Hok. destruct Hok as [Hy Hd].
  rewrite app_length, Nat.add_comm. cbn [length Nat.add]. rewrite be_snoc, debe_snoc.
  rewrite Z.div_add_l, Z.div_small, Z.add_0_r, (Z.add_comm (debe y * 256)), Z.mod_add, Z.mod_small, N2Z.id by lia.
  now rewrite (IH Hy).
Qed.

(* [be n] looks at its argument modulo 256^n only, so n bytes are recovered from the number they
   denote read as signed or as unsigned *)
Lemma be_add_mul n : forall z k, be n (z + k * 256 ^ Z.of_nat n) = be n z.
Proof.
  induction n as [|n IH]; intros z k; [reflexivity|].
  rewrite !be_snoc, Nat2Z.inj_succ, Z.pow_succ_r by lia.
  replace (z + k * (256 * 256 ^ Z.of_nat n)) with (z + k * 256 ^ Z.of_nat n * 256) by ring.
  rewrite Z.div_add, Z.mod_add, IH by lia. reflexivity.
Qed.

Lemma be_debe_z n x : zlen x = Z.of_nat n -> bytes_ok x -> be n (debe x) = x.
Proof. intros Hl Hok. replace n with (length x) by (unfold zlen in Hl; lia). now apply be_debe. Qed.

Lemma be_debe_wrap n x k : zlen x = Z.of_nat n -> bytes_ok x -> be n (debe x + k * 256 ^ Z.of_nat n) = x.
Proof. intros Hl Hok. rewrite be_add_mul. now apply be_debe_z. Qed.

Lemma be_i64 x : zlen x = 8 -> bytes_ok x -> be 8 (i64 (debe x)) = x.
Proof.
  intros Hl Hok. unfold i64. destruct (two63 <=? debe x).
  - apply (be_debe_wrap 8 x (-1) Hl Hok).
  - exact (be_debe_z 8 x Hl Hok).
Qed.

Lemma be_i32 x : zlen x = 4 -> bytes_ok x -> be 4 (i32 (debe x)) = x.
Proof.
  intros Hl Hok. unfold i32. destruct (two31 <=? debe x).
  - apply (be_debe_wrap 4 x (-1) Hl Hok).
  - exact (be_debe_z 4 x Hl Hok).
Qed.

Lemma i64_debe_be z : - two63 <= z < two63 -> i64 (debe (be 8 z)) = z.
Proof.
  intros Hz. rewrite debe_be. change (256 ^ Z.of_nat 8) with two64z. unfold i64.
  destruct (Z.lt_ge_cases z 0) as [Hneg|Hpos].
  - rewrite <- (Z.mod_add z 1 two64z), Z.mod_small by (unfold two63, two64z in *; lia).
    destruct (two63 <=? z + 1 * two64z) eqn:E; unfold two63, two64z in *; lia.
  - rewrite Z.mod_small by (unfold two63, two64z in *; lia). destruct (two63 <=? z) eqn:E; lia.
Qed.

Lemma i32_debe_be z : 0 <= z < two31 -> i32 (debe (be 4 z)) = z.
Proof.
  intros Hz. rewrite debe_be_small by (change (256 ^ Z.of_nat 4) with two32; unfold two31, two32 in *; lia).
  unfold i32. destruct (two31 <=? z) eqn:E; lia.
Qed.

Lemma i64_range u : 0 <= u < two64z -> - two63 <= i64 u < two63.
Proof. intros Hu. unfold i64. destruct (two63 <=? u) eqn:E; unfold two63, two64z in *; lia. Qed.

(* for non-negative arguments the clamping in [sub] cannot be seen *)
Lemma sub_nat (b : bytes) p n : 0 <= p -> 0 <= n -> sub b p n = firstn (Z.to_nat n) (skipn (Z.to_nat p) b).
Proof.
  intros Hp Hn. unfold sub. destruct ((p <? 0) || (n <? 0)) eqn:E; [lia|]. clear E. unfold zlen.
  destruct (Z.le_ge_cases p (Z.of_nat (length b))) as [H|H].
  - rewrite (Z.min_l p) by exact H. destruct (Z.le_ge_cases n (Z.of_nat (length b))) as [H'|H'].
    + now rewrite Z.min_l.
    + rewrite Z.min_r, Nat2Z.id by exact H'. rewrite !firstn_all2; [reflexivity| |]; rewrite skipn_length; lia.
  - rewrite (Z.min_r p), Nat2Z.id, skipn_all, skipn_all2 by lia. now rewrite !firstn_nil.
Qed.

Lemma zlen_sub (b : bytes) p n : 0 <= p -> 0 <= n -> zlen (sub b p n) = Z.min n (Z.max 0 (zlen b - p)).
Proof. intros Hp Hn. rewrite sub_nat by assumption. unfold zlen. rewrite firstn_length, skipn_length. lia. Qed.

Lemma zlen_sub_le (b : bytes) p n : 0 <= n -> zlen (sub b p n) <= n.
Proof.
  intros Hn. destruct (Z.lt_ge_cases p 0) as [Hp|Hp].
  - unfold sub. destruct ((p <? 0) || (n <? 0)) eqn:E; [exact Hn|lia].
  - rewrite zlen_sub by assumption. lia.
Qed.

Lemma zlen_sub_exact (b : bytes) p n : 0 <= p -> 0 <= n -> p + n <= zlen b -> zlen (sub b p n) = n.
Proof. intros Hp Hn Hle. rewrite zlen_sub by assumption. lia. Qed.

Lemma sub_full_le (b : bytes) p n : 0 <= p -> 0 < n -> zlen (sub b p n) = n -> p + n <= zlen b.
Proof. intros Hp Hn. rewrite zlen_sub by lia. lia. Qed.

(* the decoder's test that a slice is not short *)
Lemma sub_not_short (b : bytes) p n : 0 <= n -> (zlen (sub b p n) <? n) = false -> zlen (sub b p n) = n.
Proof. intros Hn Hlt. pose proof (zlen_sub_le b p n Hn). lia. Qed.

Lemma sub_zero (b : bytes) p : sub b p 0 = [].
Proof. unfold sub. destruct ((p <? 0) || (0 <? 0)); [reflexivity|]. rewrite Z.min_l by apply zlen_nonneg. reflexivity. Qed.

Lemma sub_0_all (x : bytes) : sub x 0 (zlen x) = x.
Proof. rewrite sub_nat by (try apply zlen_nonneg; lia). unfold zlen. rewrite Nat2Z.id. apply firstn_all. Qed.

Lemma bytes_ok_sub b p n : bytes_ok b -> bytes_ok (sub b p n).
Proof.
  intros Hok. unfold sub. destruct ((p <? 0) || (n <? 0)); [constructor|].
  unfold bytes_ok in *. rewrite Forall_forall in *. intros x Hx. apply Hok.
  apply in_firstn in Hx. eapply in_skipn; eauto.
Qed.

Lemma sub_concat (b : bytes) p n1 n2 : 0 <= p -> 0 <= n1 -> 0 <= n2 ->
  sub b p (n1 + n2) = sub b p n1 ++ sub b (p + n1) n2.
Proof.
  intros Hp H1 H2. rewrite !sub_nat, !Z2Nat.inj_add by lia. rewrite firstn_add. f_equal. f_equal.
  symmetry. apply skipn_add.
Qed.

Lemma sub_split (x : bytes) a : 0 <= a <= zlen x -> x = sub x 0 a ++ sub x a (zlen x - a).
Proof.
  intros Ha. rewrite <- (sub_0_all x) at 1. replace (zlen x) with (a + (zlen x - a)) at 1 by lia.
  apply (sub_concat x 0); lia.
Qed.

Lemma sub_full (b : bytes) p n :
  0 <= p -> 0 < n -> zlen (sub b p n) = n ->
  exists pre post, b = pre ++ sub b p n ++ post /\ zlen pre = p.
Proof.
  intros Hp Hn Hl. pose proof (sub_full_le b p n Hp Hn Hl) as Hle.
  exists (sub b 0 p), (sub b (p + n) (zlen b - p - n)). split; [|apply zlen_sub_exact; lia].
  rewrite <- sub_concat by lia. replace (n + (zlen b - p - n)) with (zlen b - p) by lia. apply sub_split. lia.
Qed.

Lemma sub_shift (pre l : bytes) p n : 0 <= p -> sub (pre ++ l) (zlen pre + p) n = sub l p n.
Proof.
  intros Hp. destruct (Z.lt_ge_cases n 0) as [Hn|Hn].
  - unfold sub. destruct (n <? 0) eqn:E; [|lia]. now rewrite !orb_true_r.
  - pose proof (zlen_nonneg pre). rewrite !sub_nat by lia. unfold zlen. rewrite Z2Nat.inj_add, Nat2Z.id by lia.
    rewrite skipn_add. now rewrite skipn_app_exact_l.
Qed.

Lemma sub_app_skip (a b : bytes) n : sub (a ++ b) (zlen a) n = sub b 0 n.
Proof. rewrite <- (Z.add_0_r (zlen a)). apply sub_shift. lia. Qed.

Lemma sub_app_l (x l : bytes) p n : 0 <= p -> 0 <= n -> p + n <= zlen x -> sub (x ++ l) p n = sub x p n.
Proof.
  intros Hp Hn Hle. rewrite !sub_nat by assumption. rewrite skipn_app, firstn_app.
  replace (Z.to_nat n - length (skipn (Z.to_nat p) x))%nat with O by (rewrite skipn_length; unfold zlen in Hle; lia).
  apply app_nil_r.
Qed.

Lemma sub_prefix (x post : bytes) : sub (x ++ post) 0 (zlen x) = x.
Proof. pose proof (zlen_nonneg x). rewrite sub_app_l by lia. apply sub_0_all. Qed.

Lemma sub_mid (pre x post : bytes) : sub (pre ++ x ++ post) (zlen pre) (zlen x) = x.
Proof. rewrite sub_app_skip. apply sub_prefix. Qed.

(* to read the fields of x1 ++ x2 ++ ...: skip those that end at or before the offset, take the one that starts there;
   the side conditions are such that [lia] settles them from the lengths of the fields *)
Lemma sub_skip (x l : bytes) p n : zlen x <= p -> sub (x ++ l) p n = sub l (p - zlen x) n.
Proof. intros Hp. replace p with (zlen x + (p - zlen x)) at 1 by lia. apply sub_shift. lia. Qed.

Lemma sub_take (x l : bytes) p n : p = 0 -> n = zlen x -> sub (x ++ l) p n = x.
Proof. intros -> ->. apply sub_prefix. Qed.

Lemma sub_all (x : bytes) p n : p = 0 -> n = zlen x -> sub x p n = x.
Proof. intros -> ->. apply sub_0_all. Qed.

Lemma enc_rec_length crc v m : zlen (enc_rec crc v m) = rec_size v m.
Proof.
  unfold enc_rec, rec_size, rec_overhead. destruct v; rewrite !zlen_app, !zlen_be; change (zlen trailer) with 8; lia.
Qed.

Lemma enc_item_length p it : zlen (enc_item p it) = item_size p.
Proof.
  unfold enc_item, item_size. rewrite !zlen_app, !zlen_be.
  destruct (ptimes p), (pkeys p); rewrite ?zlen_be; change (zlen []) with 0; lia.
Qed.

Lemma enc_log_header_length v : zlen (enc_log_header v) = hdr_size v.
Proof. destruct v; reflexivity. Qed.

Lemma zlen_concat_enc crc v ms : zlen (concat (map (enc_rec crc v) ms)) = recs_size v ms.
Proof. induction ms as [|m r IH]; [reflexivity|]. cbn [map concat recs_size]. rewrite zlen_app, enc_rec_length, IH. reflexivity. Qed.

Lemma enc_log_length crc v ms : zlen (enc_log crc v ms) = log_size v ms.
Proof. unfold enc_log, log_size. now rewrite zlen_app, enc_log_header_length, zlen_concat_enc. Qed.

(* readV1 and readV2 are one decoder once the header fields are located: c the checksum field, o t k l the
   offset, the time and the two lengths, tl what has to follow the value (V2's trailer), cov the bytes the checksum
   covers, given the payload *)
Definition read_fields (crc : bytes -> Z) (c o t k l tl : bytes) (cov : bytes -> bytes) (b : bytes) (pos : Z) : res (msg * Z) :=
  let kl := i32 (debe k) in
  let vl := i32 (debe l) in
  if (kl <? 0) || (vl <? 0) then Err ELogCorrupted
  else if max_body <? kl + vl then Err ELogCorrupted
  else
    let payload := sub b (pos + 28) (kl + vl + zlen tl) in
    if zlen payload <? kl + vl + zlen tl then Err ELogCorrupted
    else if negb (crc (cov payload) =? debe c) then Err ELogCorrupted
    else if negb (bytes_eqb (sub payload (kl + vl) (zlen tl)) tl) then Err ELogCorrupted
    else Ok (mkMsg (i64 (debe o)) (i64 (debe t)) (sub payload 0 kl) (sub payload kl vl), pos + 28 + kl + vl + zlen tl).

Lemma read_rec_eq crc v b pos :
  read_rec crc v b pos =
  let hdr := sub b pos 28 in
  if zlen hdr =? 0 then Err EEOF
  else if zlen hdr <? 28 then Err ELogCorrupted
  else match v with
       | V1 => read_fields crc (sub hdr 24 4) (sub hdr 0 8) (sub hdr 8 8) (sub hdr 16 4) (sub hdr 20 4) [] (fun x => x) b pos
       | V2 => read_fields crc (sub hdr 0 4) (sub hdr 4 8) (sub hdr 12 8) (sub hdr 20 4) (sub hdr 24 4) trailer (app (sub hdr 4 24)) b pos
       end.
Proof.
  destruct v; [|reflexivity]. unfold read_rec, read_fields. cbv zeta. change (zlen []) with 0.
  rewrite !Z.add_0_r, sub_zero. reflexivity.
Qed.

Lemma guard_ok {A} (c : bool) e (k : res A) x : (if c then Err e else k) = Ok x -> c = false /\ k = Ok x.
Proof. destruct c; [discriminate|auto]. Qed.

Lemma read_fields_err crc c o t k l tl cov b pos e : read_fields crc c o t k l tl cov b pos = Err e -> e = ELogCorrupted.
Proof.
  unfold read_fields. cbv zeta.
  destruct (_ || _); [congruence|]. destruct (max_body <? _); [congruence|]. destruct (zlen _ <? _); [congruence|].
  destruct (negb _); [congruence|]. destruct (negb _); congruence.
Qed.

Lemma read_fields_ok crc c o t k l tl cov b pos m nxt :
  read_fields crc c o t k l tl cov b pos = Ok (m, nxt) ->
  zlen (mkey m) + zlen (mval m) <= max_body /\
  moff m = i64 (debe o) /\ mtime m = i64 (debe t) /\ zlen (mkey m) = i32 (debe k) /\ zlen (mval m) = i32 (debe l) /\
  sub b (pos + 28) (zlen (mkey m) + zlen (mval m) + zlen tl) = mkey m ++ mval m ++ tl /\
  crc (cov (mkey m ++ mval m ++ tl)) = debe c /\
  nxt = pos + 28 + zlen (mkey m) + zlen (mval m) + zlen tl.
Proof.
  intros E. unfold read_fields in E. cbv zeta in E. pose proof (zlen_nonneg tl) as Htl.
  set (kl := i32 (debe k)) in *. set (vl := i32 (debe l)) in *. set (payload := sub b (pos + 28) (kl + vl + zlen tl)) in E.
  apply guard_ok in E as [Gneg E]. apply guard_ok in E as [Gmax E]. apply guard_ok in E as [Gpl E].
  apply guard_ok in E as [Gcrc E]. apply guard_ok in E as [Gtr E]. injection E as <- <-. cbn [moff mtime mkey mval].
  assert (Hpl : zlen payload = kl + vl + zlen tl) by (apply sub_not_short; [lia|exact Gpl]).
  apply negb_false_iff, Z.eqb_eq in Gcrc. apply negb_false_iff, bytes_eqb_eq in Gtr.
  rewrite (zlen_sub_exact payload 0 kl), (zlen_sub_exact payload kl vl) by lia.
  assert (Hp : payload = sub payload 0 kl ++ sub payload kl vl ++ tl).
  { rewrite <- Gtr at 1. rewrite <- (sub_concat payload kl), <- (sub_concat payload 0 kl) by lia.
    replace (kl + (vl + zlen tl)) with (zlen payload) by lia. symmetry. apply sub_0_all. }
  rewrite <- Hp. split; [lia|]. do 5 (split; [reflexivity|]). split; [exact Gcrc|lia].
Qed.

Definition msg_ok (m : msg) : Prop :=
  - two63 <= moff m < two63 /\ - two63 <= mtime m < two63 /\ zlen (mkey m) + zlen (mval m) <= max_body.

Definition crc_range (crc : bytes -> Z) : Prop := forall b, 0 <= crc b < two32.

Lemma read_fields_roundtrip crc cov pre hdr m tl post :
  crc_range crc -> msg_ok m -> zlen hdr = 28 ->
  read_fields crc (be 4 (crc (cov (mkey m ++ mval m ++ tl)))) (be 8 (moff m)) (be 8 (mtime m))
    (be 4 (zlen (mkey m))) (be 4 (zlen (mval m))) tl cov (pre ++ hdr ++ (mkey m ++ mval m ++ tl) ++ post) (zlen pre) =
  Ok (m, zlen pre + 28 + zlen (mkey m) + zlen (mval m) + zlen tl).
Proof.
  intros Hcrc (Ho & Ht & Hsz) Hh.
  pose proof (zlen_nonneg (mkey m)) as Hk0. pose proof (zlen_nonneg (mval m)) as Hv0. pose proof (zlen_nonneg tl) as Htl.
  unfold read_fields. rewrite (i64_debe_be _ Ho), (i64_debe_be _ Ht), !i32_debe_be by (unfold max_body, two31 in *; lia). cbv zeta.
  set (payload := mkey m ++ mval m ++ tl).
  assert (Hpl : zlen payload = zlen (mkey m) + zlen (mval m) + zlen tl) by (unfold payload; rewrite !zlen_app; lia).
  rewrite <- Hh, <- (zlen_app pre hdr), (app_assoc pre hdr), sub_app_skip, (sub_take payload post), Hpl by lia.
  destruct (_ || _) eqn:E1; [lia|]. destruct (max_body <? _) eqn:E2; [lia|]. rewrite Z.ltb_irrefl.
  rewrite debe_be_small, Z.eqb_refl by apply Hcrc. unfold payload.
  rewrite 2 sub_skip, (sub_all tl), bytes_eqb_refl by lia.
  rewrite sub_take, sub_skip, sub_take by lia. destruct m as [off tm key val]. reflexivity.
Qed.

Lemma read_fields_short crc c o t kl vl tl cov pre hdr rest :
  0 <= kl -> 0 <= vl -> kl + vl <= max_body -> zlen hdr = 28 -> zlen rest < kl + vl + zlen tl ->
  read_fields crc c o t (be 4 kl) (be 4 vl) tl cov (pre ++ hdr ++ rest) (zlen pre) = Err ELogCorrupted.
Proof.
  intros Hk Hv Hmax Hh Hshort. pose proof (zlen_nonneg tl) as Htl. pose proof (zlen_nonneg rest) as Hr.
  unfold read_fields. rewrite !i32_debe_be by (unfold max_body, two31 in *; lia). cbv zeta.
  destruct (_ || _) eqn:E1; [lia|]. destruct (max_body <? _) eqn:E2; [lia|].
  rewrite <- Hh, <- (zlen_app pre hdr), (app_assoc pre hdr), sub_app_skip, zlen_sub by lia.
  destruct (Z.min _ _ <? _) eqn:E3; [reflexivity|lia].
Qed.

Lemma read_rec_v2_fields crc pre c o t k l rest :
  zlen c = 4 -> zlen o = 8 -> zlen t = 8 -> zlen k = 4 -> zlen l = 4 ->
  read_rec crc V2 (pre ++ (c ++ o ++ t ++ k ++ l) ++ rest) (zlen pre) =
  read_fields crc c o t k l trailer (app (o ++ t ++ k ++ l)) (pre ++ (c ++ o ++ t ++ k ++ l) ++ rest) (zlen pre).
Proof.
  intros Hc Ho Ht Hk Hl. set (hdr := c ++ o ++ t ++ k ++ l).
  assert (Hh : zlen hdr = 28) by (unfold hdr; rewrite !zlen_app; lia).
  rewrite read_rec_eq. cbv zeta.
  replace (sub (pre ++ hdr ++ rest) (zlen pre) 28) with hdr by (rewrite <- Hh; symmetry; apply sub_mid).
  rewrite Hh. cbn [Z.eqb Z.ltb Z.compare Pos.compare Pos.compare_cont].
  assert (F0 : sub hdr 0 4 = c) by (apply sub_take; lia).
  assert (F4 : sub hdr 4 24 = o ++ t ++ k ++ l) by (unfold hdr; rewrite sub_skip by lia; apply sub_all; rewrite ?zlen_app; lia).
  assert (Fo : sub hdr 4 8 = o) by (unfold hdr; rewrite sub_skip by lia; apply sub_take; lia).
  assert (Ft : sub hdr 12 8 = t) by (unfold hdr; rewrite 2 sub_skip by lia; apply sub_take; lia).
  assert (Fk : sub hdr 20 4 = k) by (unfold hdr; rewrite 3 sub_skip by lia; apply sub_take; lia).
  assert (Fl : sub hdr 24 4 = l) by (unfold hdr; rewrite 4 sub_skip by lia; apply sub_all; lia).
  rewrite F0, F4, Fo, Ft, Fk, Fl. reflexivity.
Qed.

Lemma read_rec_v1_fields crc pre o t k l c rest :
  zlen o = 8 -> zlen t = 8 -> zlen k = 4 -> zlen l = 4 -> zlen c = 4 ->
  read_rec crc V1 (pre ++ (o ++ t ++ k ++ l ++ c) ++ rest) (zlen pre) =
  read_fields crc c o t k l [] (fun x => x) (pre ++ (o ++ t ++ k ++ l ++ c) ++ rest) (zlen pre).
Proof.
  intros Ho Ht Hk Hl Hc. set (hdr := o ++ t ++ k ++ l ++ c).
  assert (Hh : zlen hdr = 28) by (unfold hdr; rewrite !zlen_app; lia).
  rewrite read_rec_eq. cbv zeta.
  replace (sub (pre ++ hdr ++ rest) (zlen pre) 28) with hdr by (rewrite <- Hh; symmetry; apply sub_mid).
  rewrite Hh. cbn [Z.eqb Z.ltb Z.compare Pos.compare Pos.compare_cont].
  assert (Fo : sub hdr 0 8 = o) by (apply sub_take; lia).
  assert (Ft : sub hdr 8 8 = t) by (unfold hdr; rewrite sub_skip by lia; apply sub_take; lia).
  assert (Fk : sub hdr 16 4 = k) by (unfold hdr; rewrite 2 sub_skip by lia; apply sub_take; lia).
  assert (Fl : sub hdr 20 4 = l) by (unfold hdr; rewrite 3 sub_skip by lia; apply sub_take; lia).
  assert (Fc : sub hdr 24 4 = c) by (unfold hdr; rewrite 4 sub_skip by lia; apply sub_all; lia).
  rewrite Fo, Ft, Fk, Fl, Fc. reflexivity.
Qed.

(* header ++ payload, in the shape of [read_fields]: behind the value V1 has nothing, V2 the trailer *)
Lemma enc_rec_v1_eq crc m :
  enc_rec crc V1 m =
  (be 8 (moff m) ++ be 8 (mtime m) ++ be 4 (zlen (mkey m)) ++ be 4 (zlen (mval m)) ++ be 4 (crc (mkey m ++ mval m ++ [])))
  ++ mkey m ++ mval m ++ [].
Proof. unfold enc_rec. now rewrite !app_nil_r, <- !app_assoc. Qed.

Lemma enc_rec_v2_eq crc m :
  enc_rec crc V2 m =
  (be 4 (crc ((be 8 (moff m) ++ be 8 (mtime m) ++ be 4 (zlen (mkey m)) ++ be 4 (zlen (mval m))) ++ mkey m ++ mval m ++ trailer))
   ++ be 8 (moff m) ++ be 8 (mtime m) ++ be 4 (zlen (mkey m)) ++ be 4 (zlen (mval m)))
  ++ mkey m ++ mval m ++ trailer.
Proof. unfold enc_rec. now rewrite <- !app_assoc. Qed.

Theorem read_rec_roundtrip crc v pre m post :
  crc_range crc -> msg_ok m ->
  read_rec crc v (pre ++ enc_rec crc v m ++ post) (zlen pre) = Ok (m, zlen pre + rec_size v m).
Proof.
  intros Hcrc Hm. unfold rec_size, rec_overhead. destruct v.
  - rewrite enc_rec_v1_eq, <- app_assoc, read_rec_v1_fields by apply zlen_be.
    rewrite (read_fields_roundtrip crc (fun x => x)) by (rewrite ?zlen_app, ?zlen_be; trivial).
    change (zlen []) with 0. f_equal. f_equal. lia.
  - rewrite enc_rec_v2_eq, <- app_assoc, read_rec_v2_fields by apply zlen_be.
    rewrite (read_fields_roundtrip crc (app _)) by (rewrite ?zlen_app, ?zlen_be; trivial).
    change (zlen trailer) with 8. f_equal. f_equal. lia.
Qed.

Lemma read_rec_err crc v b pos e :
  read_rec crc v b pos = Err e -> (e = EEOF /\ zlen (sub b pos 28) = 0) \/ e = ELogCorrupted.
Proof.
  rewrite read_rec_eq. cbv zeta. destruct (zlen (sub b pos 28) =? 0) eqn:E0; [intros [= <-]; left; split; [reflexivity|lia]|].
  intros E. right. destruct (zlen (sub b pos 28) <? 28); [congruence|]. destruct v; exact (read_fields_err _ _ _ _ _ _ _ _ _ _ _ E).
Qed.

Lemma read_rec_eof_iff crc v (b : bytes) pos : 0 <= pos -> (read_rec crc v b pos = Err EEOF <-> zlen b <= pos).
Proof.
  intros Hpos. pose proof (zlen_sub b pos 28 Hpos ltac:(lia)) as Hz. split.
  - intros E. apply read_rec_err in E. destruct E as [[_ E]|E]; [lia|discriminate].
  - intros Hle. rewrite read_rec_eq. cbv zeta. destruct (zlen (sub b pos 28) =? 0) eqn:E0; [reflexivity|lia].
Qed.

Fixpoint placed (v : ver) (pos : Z) (ms : list msg) : list (Z * msg) :=
  match ms with [] => [] | m :: r => (pos, m) :: placed v (pos + rec_size v m) r end.

Lemma map_snd_placed v ms : forall pos, map snd (placed v pos ms) = ms.
Proof. induction ms as [|m r IH]; intros pos; [reflexivity|]. cbn [placed map snd]. now rewrite IH. Qed.

Lemma scan_log_encoded crc v : forall ms pre post fuel err,
  crc_range crc -> Forall msg_ok ms -> (length ms < fuel)%nat ->
  read_rec crc v (pre ++ concat (map (enc_rec crc v) ms) ++ post) (zlen pre + recs_size v ms) = Err err ->
  scan_log crc fuel v (pre ++ concat (map (enc_rec crc v) ms) ++ post) (zlen pre) =
  (placed v (zlen pre) ms, zlen pre + recs_size v ms, match err with EEOF => ScanEOF | _ => ScanCorrupt end).
Proof.
  induction ms as [|m r IH]; intros pre post fuel err Hcrc Hok Hf Herr; (destruct fuel; [cbn in Hf; lia|]);
    cbn [scan_log map concat placed recs_size app] in *.
  - rewrite Z.add_0_r in *. rewrite Herr. now destruct err.
  - apply Forall_cons_iff in Hok. destruct Hok as [Hm Hr]. rewrite <- app_assoc in *.
    rewrite (read_rec_roundtrip crc v pre m _ Hcrc Hm).
    replace (zlen pre + rec_size v m) with (zlen (pre ++ enc_rec crc v m)) by (rewrite zlen_app, enc_rec_length; lia).
    rewrite (app_assoc pre) in *. rewrite (IH (pre ++ enc_rec crc v m) post fuel err Hcrc Hr ltac:(cbn in Hf; lia)).
    + rewrite zlen_app, enc_rec_length. f_equal. f_equal. lia.
    + rewrite <- Herr. f_equal. rewrite zlen_app, enc_rec_length. lia.
Qed.

(* a byte per step is fuel enough for a log of records *)
Lemma scan_fuel_enc crc v ms (pre post : bytes) :
  (length ms < scan_fuel_of (pre ++ concat (map (enc_rec crc v) ms) ++ post))%nat.
Proof.
  unfold scan_fuel_of. rewrite !app_length.
  assert (length ms <= length (concat (map (enc_rec crc v) ms)))%nat; [|lia].
  induction ms as [|m r IH]; [cbn; lia|]. cbn [map concat length]. rewrite app_length.
  pose proof (enc_rec_length crc v m) as Hl. pose proof (rec_size_pos v m). unfold zlen in Hl. lia.
Qed.

Theorem scan_encoded_log crc v ms :
  crc_range crc -> Forall msg_ok ms ->
  scan_log crc (scan_fuel_of (enc_log crc v ms)) v (enc_log crc v ms) (hdr_size v) =
  (placed v (hdr_size v) ms, log_size v ms, ScanEOF).
Proof.
  intros Hcrc Hok. unfold enc_log, log_size. rewrite <- (enc_log_header_length v).
  rewrite <- (app_nil_r (concat _)).
  apply (scan_log_encoded crc v ms (enc_log_header v) [] _ EEOF Hcrc Hok (scan_fuel_enc crc v ms _ [])).
  apply read_rec_eof_iff; [pose proof (zlen_nonneg (enc_log_header v)); pose proof (recs_size_nonneg v ms); lia|].
  rewrite app_nil_r, zlen_app, zlen_concat_enc. lia.
Qed.

Lemma be_i64_sub (h : bytes) p : bytes_ok h -> 0 <= p -> p + 8 <= zlen h -> be 8 (i64 (debe (sub h p 8))) = sub h p 8.
Proof. intros Hok Hp Hle. apply be_i64; [apply zlen_sub_exact; lia|now apply bytes_ok_sub]. Qed.

Lemma be_i32_sub (h : bytes) p : bytes_ok h -> 0 <= p -> p + 4 <= zlen h -> be 4 (i32 (debe (sub h p 4))) = sub h p 4.
Proof. intros Hok Hp Hle. apply be_i32; [apply zlen_sub_exact; lia|now apply bytes_ok_sub]. Qed.

Lemma be_debe_sub (h : bytes) p : bytes_ok h -> 0 <= p -> p + 4 <= zlen h -> be 4 (debe (sub h p 4)) = sub h p 4.
Proof. intros Hok Hp Hle. apply be_debe_z; [apply zlen_sub_exact; lia|now apply bytes_ok_sub]. Qed.

Lemma i64_sub_range (h : bytes) p : bytes_ok h -> - two63 <= i64 (debe (sub h p 8)) < two63.
Proof.
  intros Hok. apply i64_range. pose proof (debe_bound _ (bytes_ok_sub h p 8 Hok)) as Hb.
  pose proof (zlen_sub_le h p 8 ltac:(lia)) as Hle.
  pose proof (Z.pow_le_mono_r 256 _ 8 ltac:(lia) Hle) as Hpow. change (256 ^ 8) with two64z in Hpow. lia.
Qed.

Theorem read_rec_msg_ok crc v b pos m nxt :
  bytes_ok b -> read_rec crc v b pos = Ok (m, nxt) -> msg_ok m.
Proof.
  intros Hok E. rewrite read_rec_eq in E. cbv zeta in E. apply guard_ok in E as [_ E]. apply guard_ok in E as [_ E].
  pose proof (bytes_ok_sub b pos 28 Hok) as Hhok.
  destruct v; apply read_fields_ok in E as (Hmax & Ho & Ht & _); unfold msg_ok; rewrite Ho, Ht;
    (split; [now apply i64_sub_range|split; [now apply i64_sub_range|exact Hmax]]).
Qed.

Theorem read_rec_v2_msg_ok crc b pos m nxt :
  bytes_ok b -> read_rec crc V2 b pos = Ok (m, nxt) -> msg_ok m.
Proof. apply read_rec_msg_ok. Qed.

Theorem read_rec_v2_sound crc b pos m nxt :
  bytes_ok b -> 0 <= pos -> read_rec crc V2 b pos = Ok (m, nxt) ->
  nxt = pos + rec_size V2 m /\ sub b pos (rec_size V2 m) = enc_rec crc V2 m.
Proof.
  intros Hok Hpos E. rewrite read_rec_eq in E. cbv zeta in E. set (hdr := sub b pos 28) in E.
  apply guard_ok in E as [_ E]. apply guard_ok in E as [G28 E].
  apply read_fields_ok in E as (_ & Ho & Ht & Hk & Hl & Hpay & Hc & Hn). change (zlen trailer) with 8 in *.
  pose proof (zlen_nonneg (mkey m)). pose proof (zlen_nonneg (mval m)).
  assert (Hh28 : zlen hdr = 28) by (apply sub_not_short; [lia|exact G28]).
  assert (Hhok : bytes_ok hdr) by (apply bytes_ok_sub; exact Hok).
  unfold rec_size, rec_overhead. split; [lia|].
  replace (36 + zlen (mkey m) + zlen (mval m)) with (28 + (zlen (mkey m) + zlen (mval m) + 8)) by lia.
  rewrite sub_concat, Hpay by lia. fold hdr. rewrite enc_rec_v2_eq, Ho, Ht, Hk, Hl. clear - Hh28 Hhok Hc.
  rewrite !be_i64_sub, !be_i32_sub by (assumption || lia).
  (* the header is the concatenation of its fields *)
  assert (H24 : sub hdr 4 24 = sub hdr 4 8 ++ sub hdr 12 8 ++ sub hdr 20 4 ++ sub hdr 24 4)
    by (rewrite <- 3 (sub_concat hdr) by lia; reflexivity).
  rewrite <- H24, Hc, be_debe_sub by (assumption || lia).
  f_equal. rewrite <- (sub_concat hdr 0) by lia. symmetry. apply sub_all; [reflexivity|now rewrite Hh28].
Qed.

(* the decoder's answer depends only on the bytes of the record it read (C14: calls answered from
   undamaged bytes return what they returned before) *)
Theorem read_rec_v2_ext crc b b' pos m nxt :
  crc_range crc -> bytes_ok b -> 0 <= pos ->
  read_rec crc V2 b pos = Ok (m, nxt) ->
  sub b' pos (nxt - pos) = sub b pos (nxt - pos) ->
  read_rec crc V2 b' pos = Ok (m, nxt).
Proof.
  intros Hcrc Hok Hpos Hr Hsame.
  pose proof (read_rec_v2_msg_ok crc b pos m nxt Hok Hr) as Hmok.
  destruct (read_rec_v2_sound crc b pos m nxt Hok Hpos Hr) as [-> Henc].
  replace (pos + rec_size V2 m - pos) with (rec_size V2 m) in Hsame by lia. rewrite Henc in Hsame.
  pose proof (rec_size_pos V2 m) as H28.
  assert (Hfull : zlen (sub b' pos (rec_size V2 m)) = rec_size V2 m) by (rewrite Hsame; apply enc_rec_length).
  destruct (sub_full b' pos (rec_size V2 m) Hpos ltac:(lia) Hfull) as (pre & post & Hb' & <-).
  rewrite Hsame in Hb'. rewrite Hb'. now apply read_rec_roundtrip.
Qed.

Theorem enc_rec_v2_injective crc m1 m2 :
  crc_range crc -> msg_ok m1 -> msg_ok m2 -> enc_rec crc V2 m1 = enc_rec crc V2 m2 -> m1 = m2.
Proof.
  intros Hcrc H1 H2 E.
  pose proof (read_rec_roundtrip crc V2 [] m1 [] Hcrc H1) as R1.
  pose proof (read_rec_roundtrip crc V2 [] m2 [] Hcrc H2) as R2.
  cbn [app] in R1, R2. rewrite E in R1. rewrite R1 in R2. now injection R2.
Qed.
