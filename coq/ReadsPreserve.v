(* what a successful read (Consume, Get, GetByKey, ConsumeByKey, GetByTime, NextOffset, Stat)
   does to the state is a chain of lazy index loads (rebuilds), and such a chain leaves the invariant and the
   abstract log unchanged: reads only (re)build index files. *)
From KV Require Import Base Model LogInv.

Section ReadsPreserve.
Variable H : bytes -> Z.

Inductive rebuilds (c : cfg) : lstate -> lstate -> Prop :=
| rebuilds_refl st : rebuilds c st st
| rebuilds_step st i st1 s items st2 :
    with_index H c st i = Ok (st1, s, items) -> rebuilds c st1 st2 -> rebuilds c st st2.

Lemma rebuilds_one c st i st1 s items : with_index H c st i = Ok (st1, s, items) -> rebuilds c st st1.
Proof. intros Hw. exact (rebuilds_step c _ _ _ _ _ _ Hw (rebuilds_refl c st1)). Qed.

Lemma rebuilds_trans c a b d : rebuilds c a b -> rebuilds c b d -> rebuilds c a d.
Proof. intros Hab Hbd. induction Hab as [|a i a1 s items b Hw _ IH]; [exact Hbd|]. exact (rebuilds_step c _ _ _ _ _ _ Hw (IH Hbd)). Qed.

(* E : (do r <- with_index H c st i; ...) = Ok _ : name the state after the build and record the step as Hk *)
Ltac wi_step E Hk :=
  match type of E with
  | context [with_index H ?c ?st ?i] =>
    let Hw := fresh "Hw" in
    destruct (with_index H c st i) as [[[?sa ?s] ?items]|] eqn:Hw; [|discriminate];
    cbn [bind] in E; pose proof (rebuilds_one _ _ _ _ _ _ Hw) as Hk
  end.

Lemma cfg_rebuilds {A} st (f : cfg -> res (lstate * A)) st1 a :
  (forall c, f c = Ok (st1, a) -> rebuilds c st st1) ->
  (do c <- get_cfg st; f c) = Ok (st1, a) -> exists c, opened st = Some c /\ rebuilds c st st1.
Proof. intros Hf E. destruct (bind_cfg _ _ _ E) as (c & Hc & Ec). exists c. split; [exact Hc|exact (Hf c Ec)]. Qed.

Lemma get_newest_back_rebuilds c n : forall st i st1 m,
  get_newest_back H c st n i = Ok (st1, m) -> rebuilds c st st1.
Proof.
  induction n as [|n IH]; intros st i st1 m E; cbn [get_newest_back] in E; wi_step E Hk.
  - destruct (reader_get s items (is_last st i) OffsetNewest) as [m0|e]; [injection E as <- <-; exact Hk|].
    destruct e; discriminate.
  - destruct (reader_get s items (is_last st i) OffsetNewest) as [m0|e]; [injection E as <- <-; exact Hk|].
    destruct e; try discriminate. destruct (0 <? i); [|discriminate].
    eapply rebuilds_trans; [exact Hk|]. eapply IH; eassumption.
Qed.

Lemma log_get_rebuilds st off st1 m : log_get H st off = Ok (st1, m) -> exists c, opened st = Some c /\ rebuilds c st st1.
Proof.
  unfold log_get. apply cfg_rebuilds. intros c E.
  destruct (seg_get (bases (segs st)) off) as [i|]; [|discriminate]. cbn [bind] in E.
  destruct (off =? OffsetNewest); [eapply get_newest_back_rebuilds; eassumption|].
  wi_step E Hk. destruct (reader_get s items (is_last st i) off) as [m0|e].
  - injection E as <- <-. exact Hk.
  - destruct e; try discriminate. destruct (i <? zlen (segs st) - 1); discriminate.
Qed.

Lemma get_by_key_back_rebuilds c k n : forall st i st1 m,
  get_by_key_back H c st k n i = Ok (st1, m) -> rebuilds c st st1.
Proof.
  induction n as [|n IH]; intros st i st1 m E; cbn [get_by_key_back] in E; [discriminate|]. wi_step E Hk.
  destruct (reader_get_by_key H s items k) as [m0|e]; [injection E as <- <-; exact Hk|].
  destruct e; try discriminate. eapply rebuilds_trans; [exact Hk|]. eapply IH; eassumption.
Qed.

Lemma log_get_by_key_rebuilds st k st1 m :
  log_get_by_key H st k = Ok (st1, m) -> exists c, opened st = Some c /\ rebuilds c st st1.
Proof.
  unfold log_get_by_key. apply cfg_rebuilds. intros c E.
  destruct (negb (ckeys c)); [discriminate|]. eapply get_by_key_back_rebuilds; eassumption.
Qed.

Lemma consume_by_key_fwd_rebuilds c k n : forall st i off max st1 o,
  consume_by_key_fwd H c st k n i off max = Ok (st1, o) -> rebuilds c st st1.
Proof.
  induction n as [|n IH]; intros st i off max st1 o E; cbn [consume_by_key_fwd] in E; [discriminate|]. wi_step E Hk.
  destruct (reader_consume_by_key H s items k off max) as [[nx ms]|e]; [|discriminate]. cbn [bind] in E.
  destruct ms as [|m0 mr]; [|injection E as <- <-; exact Hk].
  destruct (zlen (segs st) - 1 <=? i); [injection E as <- <-; exact Hk|].
  eapply rebuilds_trans; [exact Hk|]. eapply IH; eassumption.
Qed.

Lemma log_consume_by_key_rebuilds st k off max st1 o :
  log_consume_by_key H st k off max = Ok (st1, o) -> exists c, opened st = Some c /\ rebuilds c st st1.
Proof.
  unfold log_consume_by_key. apply cfg_rebuilds. intros c E.
  destruct (negb (ckeys c)); [discriminate|]. destruct (seg_consume (bases (segs st)) off) as [i|]; [|discriminate]. cbn [bind] in E.
  eapply consume_by_key_fwd_rebuilds; eassumption.
Qed.

Lemma get_by_time_back_rebuilds c ts n : forall st i cand st1 cand1,
  get_by_time_back H c st ts n i cand = Ok (st1, cand1) -> rebuilds c st st1.
Proof.
  induction n as [|n IH]; intros st i cand st1 cand1 E; cbn [get_by_time_back] in E.
  - injection E as <- <-. apply rebuilds_refl.
  - wi_step E Hk.
    destruct (reader_get_by_time s items ts) as [m0|e].
    + eapply rebuilds_trans; [exact Hk|]. eapply IH; eassumption.
    + destruct e; try discriminate; try (eapply rebuilds_trans; [exact Hk|]; eapply IH; eassumption).
      injection E as <- <-. exact Hk.
Qed.

Lemma log_get_by_time_rebuilds st ts st1 m :
  log_get_by_time H st ts = Ok (st1, m) -> exists c, opened st = Some c /\ rebuilds c st st1.
Proof.
  unfold log_get_by_time. apply cfg_rebuilds. intros c E.
  destruct (negb (ctimes c)); [discriminate|].
  destruct (get_by_time_back H c st ts (length (segs st)) (zlen (segs st) - 1) TEmpty) as [[sa cand]|] eqn:Eb; [|discriminate].
  cbn [bind] in E. pose proof (get_by_time_back_rebuilds c ts _ _ _ _ _ _ Eb) as Hk.
  destruct cand; try discriminate.
  - injection E as <- <-. exact Hk.
  - wi_step E Hk2. destruct (reader_get s items (is_last st i) OffsetOldest); [|discriminate]. cbn [bind] in E.
    injection E as <- <-. exact (rebuilds_trans _ _ _ _ Hk Hk2).
Qed.

Lemma log_next_rebuilds st st1 n : log_next H st = Ok (st1, n) -> exists c, opened st = Some c /\ rebuilds c st st1.
Proof. unfold log_next. apply cfg_rebuilds. intros c E. wi_step E Hk. injection E as <- <-. exact Hk. Qed.

Lemma stat_loop_rebuilds c n : forall st i acc st1 r, stat_loop H c st n i acc = Ok (st1, r) -> rebuilds c st st1.
Proof.
  induction n as [|n IH]; intros st i acc st1 r E; cbn [stat_loop] in E.
  - injection E as <- <-. apply rebuilds_refl.
  - wi_step E Hk. destruct acc as [[sg cnt] sz]. eapply rebuilds_trans; [exact Hk|]. eapply IH; eassumption.
Qed.

Lemma log_stat_rebuilds st st1 r : log_stat H st = Ok (st1, r) -> exists c, opened st = Some c /\ rebuilds c st st1.
Proof.
  unfold log_stat. apply cfg_rebuilds. intros c E. destruct (lvirt st).
  - injection E as <- <-. apply rebuilds_refl.
  - eapply stat_loop_rebuilds; eassumption.
Qed.

Lemma log_consume_rebuilds st off max st1 o :
  log_consume H st off max = Ok (st1, o) -> exists c, opened st = Some c /\ rebuilds c st st1.
Proof.
  unfold log_consume. apply cfg_rebuilds. intros c E.
  destruct (seg_consume (bases (segs st)) off) as [i|]; [|discriminate]. cbn [bind] in E. wi_step E Hk.
  destruct (reader_consume s items (is_last st i) off max) as [o1|e]; [injection E as <- <-; exact Hk|].
  destruct e; try discriminate. destruct (i <? zlen (segs st) - 1); [|discriminate].
  wi_step E Hk2. destruct (reader_consume s0 items0 (is_last st (i + 1)) OffsetOldest max); [|discriminate]. cbn [bind] in E.
  injection E as <- <-. exact (rebuilds_trans _ _ _ _ Hk Hk2).
Qed.

(* the second clause: on the virtual handle of an empty read-only directory reads change nothing at all *)
Definition R (c : cfg) (st st1 : lstate) : Prop :=
  (Inv st -> opened st = Some c -> Inv st1 /\ abs st1 = abs st /\ opened st1 = Some c) /\ (lvirt st = true -> st1 = st).

Lemma rebuilds_R c st st1 : rebuilds c st st1 -> R c st st1.
Proof.
  induction 1 as [st|st i st1 s items st2 Hw _ [K V]]; [split; [intros HI Hc; split; [exact HI|split; [reflexivity|exact Hc]]|reflexivity]|].
  split.
  - intros HI Hc. destruct (with_index_preserves H c st i st1 s items HI Hc Hw) as (I1 & A1 & O1 & _).
    destruct (K I1 O1) as (I2 & A2 & O2). split; [exact I2|]. split; [congruence|exact O2].
  - intros Hv. unfold with_index in Hw. destruct (znth (segs st) i); [|discriminate]. rewrite Hv in Hw. injection Hw as <- _ _.
    exact (V Hv).
Qed.

Lemma rebuilds_preserve st st1 :
  Inv st -> (exists c, opened st = Some c /\ rebuilds c st st1) -> Inv st1 /\ abs st1 = abs st /\ opened st1 = opened st.
Proof.
  intros HI (c & Hc & Hb). destruct (proj1 (rebuilds_R _ _ _ Hb) HI Hc) as (I1 & A1 & O1).
  split; [exact I1|]. split; [exact A1|congruence].
Qed.

Theorem log_get_preserves st off st1 m :
  Inv st -> log_get H st off = Ok (st1, m) -> Inv st1 /\ abs st1 = abs st /\ opened st1 = opened st.
Proof. intros HI E. exact (rebuilds_preserve _ _ HI (log_get_rebuilds _ _ _ _ E)). Qed.

Theorem log_get_by_key_preserves st k st1 m :
  Inv st -> log_get_by_key H st k = Ok (st1, m) -> Inv st1 /\ abs st1 = abs st /\ opened st1 = opened st.
Proof. intros HI E. exact (rebuilds_preserve _ _ HI (log_get_by_key_rebuilds _ _ _ _ E)). Qed.

Theorem log_consume_by_key_preserves st k off max st1 o :
  Inv st -> log_consume_by_key H st k off max = Ok (st1, o) -> Inv st1 /\ abs st1 = abs st /\ opened st1 = opened st.
Proof. intros HI E. exact (rebuilds_preserve _ _ HI (log_consume_by_key_rebuilds _ _ _ _ _ _ E)). Qed.

Theorem log_get_by_time_preserves st ts st1 m :
  Inv st -> log_get_by_time H st ts = Ok (st1, m) -> Inv st1 /\ abs st1 = abs st /\ opened st1 = opened st.
Proof. intros HI E. exact (rebuilds_preserve _ _ HI (log_get_by_time_rebuilds _ _ _ _ E)). Qed.

Theorem log_next_preserves st st1 n :
  Inv st -> log_next H st = Ok (st1, n) -> Inv st1 /\ abs st1 = abs st /\ opened st1 = opened st.
Proof. intros HI E. exact (rebuilds_preserve _ _ HI (log_next_rebuilds _ _ _ E)). Qed.

Theorem log_stat_preserves st st1 r :
  Inv st -> log_stat H st = Ok (st1, r) -> Inv st1 /\ abs st1 = abs st /\ opened st1 = opened st.
Proof. intros HI E. exact (rebuilds_preserve _ _ HI (log_stat_rebuilds _ _ _ E)). Qed.

End ReadsPreserve.
