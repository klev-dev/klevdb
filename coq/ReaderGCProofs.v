(* ReaderGCProofs.v — C08, the reader's lazy load / unload (ReaderGC.v): in every interleaving of reading calls and GC
   calls no call reads through a closed mapping and GC never closes a mapping that is counted as in use.  Invariant: the
   in-use counter is exactly the number of calls that hold a reference; whoever holds one, or is about to take one under
   the lock, sees the file loaded; a GC that passed its test still sees the counter at zero, because the counter only
   grows under the lock GC holds. *)
From KV Require Import Base Notify NotifyProofs ReaderGC.
From Coq Require Import ZifyBool ZifyNat.
Local Open Scope nat_scope.

Definition holdsR (t : thr) : bool :=
  match t with TR RFastLocked | TR RFastAdd | TR RFastUnlockHit | TR RFastUnlockMiss => true | _ => false end.
Definition holdsW (t : thr) : bool :=
  match t with TR RSlowLocked | TR RSlowOpen | TR RSlowAdd | TR RSlowUnlock | TG GLocked | TG GClose | TG GUnlock => true | _ => false end.
Definition counted (t : thr) : bool :=
  match t with TR RFastUnlockHit | TR RSlowUnlock | TR RUsing | TR RRelease => true | _ => false end.
Definition needsmap (t : thr) : bool :=
  counted t || match t with TR RFastAdd | TR RSlowAdd => true | _ => false end.

Definition cnt (f : thr -> bool) (l : list thr) : nat := length (filter f l).
Definition b2n (b : bool) : nat := if b then 1 else 0.

Lemma cnt_set_nth f : forall l i old x, nth_error l i = Some old -> cnt f (set_nth i l x) + b2n (f old) = cnt f l + b2n (f x).
Proof.
  unfold cnt. induction l as [|a l IH]; intros [|i] old x Hn; cbn in Hn; try discriminate.
  - injection Hn as ->. cbn [set_nth filter]. destruct (f old), (f x); cbn [length b2n]; lia.
  - cbn [set_nth filter]. specialize (IH i old x Hn). destruct (f a); cbn [length]; lia.
Qed.

Lemma cnt_balance f l i old new n n' :
  nth_error l i = Some old -> n = cnt f l -> n' + b2n (f old) = n + b2n (f new) -> n' = cnt f (set_nth i l new).
Proof. intros Hn -> Hb. pose proof (cnt_set_nth f l i old new Hn). lia. Qed.

Lemma cnt_pos f : forall l j t, nth_error l j = Some t -> f t = true -> 1 <= cnt f l.
Proof.
  unfold cnt. induction l as [|a l IH]; intros [|j] t Hn Ht; cbn in Hn; try discriminate; cbn [filter].
  - injection Hn as ->. rewrite Ht. cbn [length]. lia.
  - specialize (IH j t Hn Ht). destruct (f a); cbn [length]; lia.
Qed.

Lemma cnt_two f : forall l i j p q, nth_error l i = Some p -> nth_error l j = Some q -> i <> j ->
  f p = true -> f q = true -> 2 <= cnt f l.
Proof.
  induction l as [|a l IH]; intros [|i] [|j] p q Hi Hj Hne Hp Hq; cbn in Hi, Hj; try discriminate; try congruence.
  - injection Hi as ->. pose proof (cnt_pos f l j q Hj Hq) as H1. unfold cnt in *. cbn [filter]. rewrite Hp. cbn [length]. lia.
  - injection Hj as ->. pose proof (cnt_pos f l i p Hi Hp) as H1. unfold cnt in *. cbn [filter]. rewrite Hq. cbn [length]. lia.
  - assert (Hne' : i <> j) by congruence. pose proof (IH i j p q Hi Hj Hne' Hp Hq) as H2.
    unfold cnt in *. cbn [filter]. destruct (f a); cbn [length]; lia.
Qed.

Record ginv (s : gstate) : Prop := mkGinv {
  gi_r : rlocks s = cnt holdsR (thrs s);
  gi_w : cnt holdsW (thrs s) = b2n (wlock s);
  gi_x : wlock s = true -> rlocks s = O;
  gi_u : inuse s = cnt counted (thrs s);
  gi_m : forall j t, nth_error (thrs s) j = Some t -> needsmap t = true -> mapped s = true;
  gi_c : forall j, nth_error (thrs s) j = Some (TG GClose) -> inuse s = O /\ mapped s = true;
  gi_b : bad s = false
}.

Definition gentry (t : thr) : bool := match t with TR RStart | TG GStart => true | _ => false end.

Lemma cnt_entry f ts : (forall t, gentry t = true -> f t = false) -> forallb gentry ts = true -> cnt f ts = O.
Proof.
  intros Hf. unfold cnt. induction ts as [|a l IH]; intros Ha; [reflexivity|]. cbn [forallb] in Ha. apply andb_prop in Ha.
  destruct Ha as [H1 H2]. cbn [filter]. rewrite (Hf a H1). now apply IH.
Qed.

Lemma ginit_inv m ts : forallb gentry ts = true -> ginv (ginit m ts).
Proof.
  intros Ha. assert (He : forall j t, nth_error ts j = Some t -> gentry t = true).
  { intros j t Hn. rewrite forallb_forall in Ha. apply Ha. eapply nth_error_In; eauto. }
  constructor; cbn [ginit rlocks wlock inuse thrs mapped bad b2n].
  - symmetry. apply cnt_entry; [|exact Ha]. intros [[]|[]]; cbn; congruence.
  - apply cnt_entry; [|exact Ha]. intros [[]|[]]; cbn; congruence.
  - discriminate.
  - symmetry. apply cnt_entry; [|exact Ha]. intros [[]|[]]; cbn; congruence.
  - intros j t Hn Hm. specialize (He j t Hn). destruct t as [[]|[]]; cbn in *; congruence.
  - intros j Hn. specialize (He j _ Hn). discriminate.
  - reflexivity.
Qed.

Lemma reader_locked s i t : ginv s -> nth_error (thrs s) i = Some t -> holdsR t = true -> 1 <= rlocks s /\ wlock s = false.
Proof.
  intros HI Hn Ht. pose proof (cnt_pos holdsR _ _ _ Hn Ht) as Hp. rewrite <- (gi_r s HI) in Hp. split; [exact Hp|].
  destruct (wlock s) eqn:Ew; [|reflexivity]. pose proof (gi_x s HI Ew). lia.
Qed.

Lemma writer_locked s i t : ginv s -> nth_error (thrs s) i = Some t -> holdsW t = true -> wlock s = true /\ rlocks s = 0.
Proof.
  intros HI Hn Ht. pose proof (cnt_pos holdsW _ _ _ Hn Ht) as Hp. rewrite (gi_w s HI) in Hp.
  destruct (wlock s) eqn:Ew; [|cbn [b2n] in Hp; lia]. split; [reflexivity|exact (gi_x s HI Ew)].
Qed.

Lemma writer_alone s i j p q : ginv s -> nth_error (thrs s) i = Some p -> nth_error (thrs s) j = Some q ->
  holdsW p = true -> holdsW q = true -> i = j.
Proof.
  intros HI Hi Hj Hp Hq. destruct (Nat.eq_dec i j) as [E|Hne]; [exact E|].
  pose proof (cnt_two holdsW _ i j p q Hi Hj Hne Hp Hq) as H2. rewrite (gi_w s HI) in H2. destruct (wlock s); cbn [b2n] in H2; lia.
Qed.

Lemma counted_inuse s i t : ginv s -> nth_error (thrs s) i = Some t -> counted t = true -> 1 <= inuse s.
Proof. intros HI Hn Ht. rewrite (gi_u s HI). exact (cnt_pos counted _ _ _ Hn Ht). Qed.

Definition at_gclose (t : thr) : bool := match t with TG GClose => true | _ => false end.

Lemma at_gclose_eq t : at_gclose t = true -> t = TG GClose.
Proof. destruct t as [[]|[]]; cbn; congruence. Qed.

Lemma needsmap_holds t : needsmap t = true -> counted t = true \/ holdsR t = true \/ holdsW t = true.
Proof. destruct t as [[]|[]]; cbn; auto. Qed.

Lemma lock_excludes_closing s i j p : ginv s -> nth_error (thrs s) i = Some p -> nth_error (thrs s) j = Some (TG GClose) ->
  holdsR p || holdsW p = true -> i = j.
Proof.
  intros HI Hi Hj Hp. destruct (holdsR p) eqn:Er.
  - destruct (reader_locked s i p HI Hi Er) as [_ E0]. destruct (writer_locked s j _ HI Hj eq_refl) as [E1 _]. congruence.
  - exact (writer_alone s i j p _ HI Hi Hj Hp eq_refl).
Qed.

Lemma closing_alone s i j t : ginv s -> nth_error (thrs s) i = Some (TG GClose) -> nth_error (thrs s) j = Some t ->
  needsmap t = true -> i = j.
Proof.
  intros HI Hi Hj Ht. destruct (gi_c s HI i Hi) as [Hz _]. destruct (needsmap_holds t Ht) as [Hc|Hl].
  - pose proof (counted_inuse s j t HI Hj Hc). lia.
  - symmetry. apply (lock_excludes_closing s j i t HI Hj Hi). destruct Hl as [-> | ->]; [reflexivity|apply orb_true_r].
Qed.

(* the balances are written with Nat.b2n, which is b2n under the name lia knows *)
Lemma ginv_upd s i old new m u r w b :
  ginv s -> nth_error (thrs s) i = Some old ->
  r + Nat.b2n (holdsR old) = rlocks s + Nat.b2n (holdsR new) ->
  Nat.b2n w + Nat.b2n (holdsW old) = Nat.b2n (wlock s) + Nat.b2n (holdsW new) ->
  ((wlock s = true -> rlocks s = 0) -> w = true -> r = 0) ->
  u + Nat.b2n (counted old) = inuse s + Nat.b2n (counted new) ->
  (needsmap new = true -> m = true) ->
  (at_gclose new = true -> u = 0 /\ m = true) ->
  (at_gclose old = false -> mapped s = true -> m = true) ->
  (u <= inuse s \/ holdsR old || holdsW old = true) ->
  (bad s = false -> b = false) ->
  ginv (upd s i new m u r w b).
Proof.
  intros HI Hn HR HW HX HU HMn HCn HMo HUo HB.
  constructor; cbn [upd rlocks wlock inuse thrs mapped bad].
  - exact (cnt_balance holdsR _ i old new _ _ Hn (gi_r s HI) HR).
  - symmetry. exact (cnt_balance holdsW _ i old new _ _ Hn (eq_sym (gi_w s HI)) HW).
  - exact (HX (gi_x s HI)).
  - exact (cnt_balance counted _ i old new _ _ Hn (gi_u s HI) HU).
  - apply (set_nth_forall (fun _ t => needsmap t = true -> m = true) _ i new old Hn HMn). intros j t Hne Hj Ht.
    apply HMo; [|exact (gi_m s HI j t Hj Ht)].
    destruct (at_gclose old) eqn:Ec; [|reflexivity]. apply at_gclose_eq in Ec. subst old. elim Hne. symmetry. exact (closing_alone s i j t HI Hn Hj Ht).
  - intros j0 Hj0. refine (set_nth_forall (fun _ t => at_gclose t = true -> u = 0 /\ m = true) _ i new old Hn HCn _ j0 _ Hj0 eq_refl).
    intros j t Hne Hj Ht. apply at_gclose_eq in Ht. subst t. destruct (gi_c s HI j Hj) as [Hz Hm].
    assert (Hl : holdsR old || holdsW old = false).
    { destruct (holdsR old || holdsW old) eqn:El; [|reflexivity]. elim Hne. symmetry. exact (lock_excludes_closing s i j old HI Hn Hj El). }
    split; [destruct HUo as [Hle|Hc]; [rewrite Hz in Hle; now apply Nat.le_0_r|congruence]|]. apply HMo; [|exact Hm].
    destruct (at_gclose old) eqn:Ec; [|reflexivity]. apply at_gclose_eq in Ec. subst old. discriminate Hl.
  - exact (HB (gi_b s HI)).
Qed.

(* with the predicates computed on the two program counters, a premise of ginv_upd is an equation that holds as it stands
   or a linear fact about the shared fields (HI and Hn are cleared because lia is cheaper without them) *)
Ltac by_upd HI Hn :=
  apply (ginv_upd _ _ _ _ _ _ _ _ _ HI Hn); clear HI Hn; cbn [holdsR holdsW counted needsmap at_gclose orb Nat.b2n]; first [reflexivity|lia].

Theorem gstep_inv s i s' : ginv s -> gstep s i = Some s' -> ginv s'.
Proof.
  intros HI Hs. unfold gstep in Hs. destruct (nth_error (thrs s) i) as [old|] eqn:Hn; [|discriminate].
  destruct old as [[]|[]].
  - (* RStart *)
    destruct (wlock s) eqn:Ew; [discriminate|]. injection Hs as <-. by_upd HI Hn.
  - (* RFastLocked *)
    injection Hs as <-. destruct (mapped s) eqn:Em; by_upd HI Hn.
  - (* RFastAdd: the counter grows under the read lock *)
    injection Hs as <-. pose proof (gi_m s HI i _ Hn eq_refl) as Hmap. by_upd HI Hn.
  - (* RFastUnlockHit *)
    injection Hs as <-. pose proof (gi_m s HI i _ Hn eq_refl) as Hmap. destruct (reader_locked s i _ HI Hn eq_refl) as [Hr1 Hw0]. by_upd HI Hn.
  - (* RFastUnlockMiss *)
    injection Hs as <-. destruct (reader_locked s i _ HI Hn eq_refl) as [Hr1 Hw0]. by_upd HI Hn.
  - (* RSlowWait *)
    destruct (wlock s) eqn:Ew; [discriminate|]. destruct (Nat.eqb (rlocks s) 0) eqn:Er; [|discriminate]. injection Hs as <-. by_upd HI Hn.
  - (* RSlowLocked *)
    injection Hs as <-. destruct (mapped s) eqn:Em; by_upd HI Hn.
  - (* RSlowOpen *)
    injection Hs as <-. by_upd HI Hn.
  - (* RSlowAdd: the counter grows under the write lock *)
    injection Hs as <-. pose proof (gi_m s HI i _ Hn eq_refl) as Hmap. by_upd HI Hn.
  - (* RSlowUnlock *)
    injection Hs as <-. pose proof (gi_m s HI i _ Hn eq_refl) as Hmap. destruct (writer_locked s i _ HI Hn eq_refl) as [Hw1 _]. by_upd HI Hn.
  - (* RUsing: the read itself *)
    injection Hs as <-. pose proof (gi_m s HI i _ Hn eq_refl) as Hmap. by_upd HI Hn.
  - (* RRelease *)
    injection Hs as <-. pose proof (counted_inuse s i _ HI Hn eq_refl) as Hu1. by_upd HI Hn.
  - (* RDone *) discriminate.
  - (* GStart *)
    destruct (wlock s) eqn:Ew; [discriminate|]. destruct (Nat.eqb (rlocks s) 0) eqn:Er; [|discriminate]. injection Hs as <-. by_upd HI Hn.
  - (* GLocked: the test *)
    injection Hs as <-. destruct (mapped s && Nat.eqb (inuse s) 0) eqn:Et; by_upd HI Hn.
  - (* GClose: the counter is still at zero *)
    injection Hs as <-. destruct (gi_c s HI i Hn) as [Hz _]. by_upd HI Hn.
  - (* GUnlock *)
    injection Hs as <-. destruct (writer_locked s i _ HI Hn eq_refl) as [Hw1 _]. by_upd HI Hn.
  - (* GDone *) discriminate.
Qed.

Theorem grun_inv : forall sched s, ginv s -> ginv (grun s sched).
Proof.
  induction sched as [|i r IH]; intros s Hi; [exact Hi|]. cbn [grun fold_left].
  destruct (gstep s i) as [s'|] eqn:E; [apply IH; eapply gstep_inv; eauto|apply IH; exact Hi].
Qed.

Lemma ginv_reachable m ts sched : forallb gentry ts = true -> ginv (grun (ginit m ts) sched).
Proof. intros Ha. apply grun_inv. now apply ginit_inv. Qed.

(* no call ever reads through a closed mapping, GC never closes a mapping that is counted as in use *)
Theorem reads_never_see_a_closed_mapping m ts sched :
  forallb gentry ts = true -> bad (grun (ginit m ts) sched) = false.
Proof. intros Ha. apply gi_b. now apply ginv_reachable. Qed.

(* and at every moment a call that is reading has the file loaded, the counter counts exactly the calls holding it *)
Theorem reading_means_loaded m ts sched j :
  forallb gentry ts = true ->
  let s := grun (ginit m ts) sched in
  nth_error (thrs s) j = Some (TR RUsing) -> mapped s = true /\ (0 < inuse s)%nat.
Proof.
  intros Ha s Hj. pose proof (ginv_reachable m ts sched Ha) as HI. fold s in HI.
  split; [exact (gi_m s HI j _ Hj eq_refl)|exact (counted_inuse s j _ HI Hj eq_refl)].
Qed.

(* a writer excludes readers and other writers *)
Theorem writer_excludes m ts sched :
  forallb gentry ts = true ->
  let s := grun (ginit m ts) sched in
  wlock s = true -> cnt holdsR (thrs s) = O /\ cnt holdsW (thrs s) = 1%nat.
Proof.
  intros Ha s Hw1. pose proof (ginv_reachable m ts sched Ha) as HI. fold s in HI.
  split; [rewrite <- (gi_r s HI); exact (gi_x s HI Hw1)|rewrite (gi_w s HI), Hw1; reflexivity].
Qed.
