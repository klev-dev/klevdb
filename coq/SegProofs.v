(* SegProofs.v — one segment: the index agrees with the log file, and the
   reader functions (log_reader.go Consume / Get) return what the record list
   says. *)
From KV Require Import Base Model ListAux SearchProofs.
From Coq Require Import ZifyBool ZifyNat.

Section SegProofs.
Variable H : bytes -> Z.

Fixpoint positions_from (v : ver) (cur : Z) (recs : list msg) : list Z :=
  match recs with
  | [] => []
  | m :: r => cur :: positions_from v (cur + rec_size v m) r
  end.

Lemma positions_ge v recs : forall cur p, In p (positions_from v cur recs) -> cur <= p.
Proof.
  induction recs as [|m r IH]; intros cur p Hin; [contradiction|].
  cbn in Hin. destruct Hin as [<-|Hin]; [lia|]. apply IH in Hin. pose proof (rec_size_pos v m). lia.
Qed.

Definition items_match (v : ver) (cur : Z) (recs : list msg) (items : list item) : Prop :=
  map ioff items = map moff recs /\ map ipos items = positions_from v cur recs.

Lemma items_match_nil v cur items : items_match v cur [] items -> items = [].
Proof. intros [Ho _]. destruct items; [reflexivity|discriminate]. Qed.

Lemma items_match_cons v cur m r items :
  items_match v cur (m :: r) items ->
  exists it ir, items = it :: ir /\ ioff it = moff m /\ ipos it = cur /\
                items_match v (cur + rec_size v m) r ir.
Proof.
  intros [Ho Hp]. destruct items as [|it ir]; [discriminate|]. cbn in Ho, Hp.
  injection Ho as Ho1 Ho2. injection Hp as Hp1 Hp2. exists it, ir. repeat split; assumption.
Qed.

Lemma in_items_pos_ge v cur recs items it :
  items_match v cur recs items -> In it items -> cur <= ipos it.
Proof.
  intros [_ Hp] Hin. apply (positions_ge v recs cur). rewrite <- Hp. now apply in_map.
Qed.

Lemma derive_from_match p v recs : forall pos ts,
  items_match v pos recs (derive_from H p v pos ts recs).
Proof.
  induction recs as [|m r IH]; intros pos ts; [split; reflexivity|].
  cbn [derive_from]. destruct (IH (pos + rec_size v m) (its (new_item H p m pos ts))) as [Ho Hp].
  split; cbn [map positions_from]; [rewrite Ho|rewrite Hp]; reflexivity.
Qed.

Lemma items_match_app v cur r1 r2 i1 i2 :
  items_match v cur r1 i1 -> items_match v (cur + recs_size v r1) r2 i2 ->
  items_match v cur (r1 ++ r2) (i1 ++ i2).
Proof.
  revert cur i1; induction r1 as [|m r IH]; intros cur i1 H1 H2.
  - apply items_match_nil in H1. subst. cbn in *. now replace (cur + 0) with cur in H2 by lia.
  - apply items_match_cons in H1. destruct H1 as (it & ir & -> & Ho & Hp & Hr).
    cbn [recs_size] in H2.
    specialize (IH (cur + rec_size v m) ir Hr).
    replace (cur + (rec_size v m + recs_size v r)) with (cur + rec_size v m + recs_size v r) in H2 by lia.
    destruct (IH H2) as [Ho' Hp'].
    split; cbn [app map positions_from]; [rewrite Ho, Ho'|rewrite Hp, Hp']; reflexivity.
Qed.

Definition recs_sorted (recs : list msg) : Prop := sorted_lt (map moff recs).

Lemma recs_sorted_tail m r : recs_sorted (m :: r) -> recs_sorted r.
Proof. apply sorted_lt_tail. Qed.

Lemma recs_sorted_head_lt m r x : recs_sorted (m :: r) -> In x r -> moff m < moff x.
Proof.
  intros Hs Hin. destruct (in_znth _ _ Hin) as [i Hi]. pose proof (znth_some _ _ _ Hi).
  apply (sorted_lt_map moff (m :: r) 0 (i + 1)); [exact Hs|reflexivity|apply znth_cons_some, Hi|lia].
Qed.

Lemma filter_ge_all off m r :
  recs_sorted (m :: r) -> off <= moff m -> filter (fun x => off <=? moff x) (m :: r) = m :: r.
Proof.
  intros Hs Hle. apply filter_all_true. intros x [<-|Hx]; [lia|].
  pose proof (recs_sorted_head_lt m r x Hs Hx). lia.
Qed.

Lemma skip_to_here v cur recs : skip_to v cur recs cur = Some (cur, recs).
Proof. destruct recs; cbn; now rewrite Z.eqb_refl. Qed.

Lemma first_ge_in items off it : first_ge items off = Some it -> In it items /\ off <= ioff it.
Proof. unfold first_ge. intros Hf. apply find_some in Hf. destruct Hf; split; [assumption|lia]. Qed.

Lemma skip_to_first_ge v : forall recs cur items off it,
  items_match v cur recs items -> recs_sorted recs ->
  first_ge items off = Some it ->
  skip_to v cur recs (ipos it) = Some (ipos it, filter (fun x => off <=? moff x) recs).
Proof.
  induction recs as [|m r IH]; intros cur items off it Hm Hs Hf.
  - apply items_match_nil in Hm. subst. discriminate.
  - destruct (items_match_cons _ _ _ _ _ Hm) as (i0 & ir & -> & Ho & Hp & Hr).
    unfold first_ge in Hf. cbn [find] in Hf. destruct (off <=? ioff i0) eqn:E.
    + injection Hf as <-. rewrite Hp, skip_to_here. f_equal. f_equal.
      symmetry. apply filter_ge_all; [assumption|lia].
    + fold (first_ge ir off) in Hf.
      destruct (first_ge_in _ _ _ Hf) as [Hin _].
      pose proof (in_items_pos_ge _ _ _ _ _ Hr Hin) as Hge. pose proof (rec_size_pos v m).
      cbn [skip_to]. destruct (ipos it =? cur) eqn:E1; [lia|].
      destruct (ipos it <? cur + rec_size v m) eqn:E2; [lia|].
      rewrite (IH _ _ _ _ Hr (recs_sorted_tail _ _ Hs) Hf).
      cbn [filter]. rewrite <- Ho, E. reflexivity.
Qed.

(* the position bound is the last record's, so reading up to it takes a plain prefix *)
Lemma take_upto_all v : forall recs cur maxpos n,
  (forall p, In p (positions_from v cur recs) -> p <= maxpos) ->
  take_upto v cur recs maxpos n = firstn n recs.
Proof.
  induction recs as [|m r IH]; intros cur maxpos n Hall; destruct n as [|n]; try reflexivity.
  cbn [take_upto firstn]. destruct (cur <=? maxpos) eqn:E.
  - f_equal. apply IH. intros p Hp. apply Hall. now right.
  - specialize (Hall cur (or_introl eq_refl)). lia.
Qed.

Lemma positions_suffix v : forall recs cur pos suffix,
  skip_to v cur recs pos = Some (pos, suffix) ->
  forall p, In p (positions_from v pos suffix) -> In p (positions_from v cur recs).
Proof.
  induction recs as [|m r IH]; intros cur pos suffix Hsk p Hp.
  - cbn in Hsk. destruct (pos =? cur); [|discriminate]. injection Hsk as E1 E2. subst. contradiction.
  - cbn [skip_to] in Hsk. destruct (pos =? cur) eqn:E.
    + injection Hsk as E1 E2. subst. exact Hp.
    + destruct (pos <? cur + rec_size v m); [discriminate|]. right. eapply IH; eauto.
Qed.

Lemma last_pos_max v : forall recs cur (items : list item) d,
  items_match v cur recs items ->
  forall p, In p (positions_from v cur recs) -> p <= ipos (last items d).
Proof.
  induction recs as [|m r IH]; intros cur items d Hm p Hp; [contradiction|].
  destruct (items_match_cons _ _ _ _ _ Hm) as (i0 & ir & -> & _ & Hpos & Hr).
  rewrite last_cons_self. destruct Hp as [<-|Hp]; [|exact (IH _ ir i0 Hr p Hp)].
  destruct r as [|m' r'].
  - apply items_match_nil in Hr. subst ir. cbn. lia.
  - pose proof (IH _ ir i0 Hr _ (or_introl eq_refl)). pose proof (rec_size_pos v m). lia.
Qed.

Lemma messages_consume_spec (s : seg) items off it max :
  items_match (sver s) (hdr_size (sver s)) (srecs s) items -> recs_sorted (srecs s) ->
  first_ge items off = Some it -> 0 <= max ->
  forall d, messages_consume s (ipos it) (ipos (last items d)) max =
            Ok (firstn (Z.to_nat max) (filter (fun x => off <=? moff x) (srecs s))).
Proof.
  intros Hm Hs Hf Hmax d. unfold messages_consume.
  destruct (max <? 0) eqn:E; [lia|].
  pose proof (skip_to_first_ge _ _ _ _ _ _ Hm Hs Hf) as Hsk. rewrite Hsk.
  set (suffix := filter (fun x => off <=? moff x) (srecs s)) in *.
  rewrite take_upto_all.
  - f_equal. destruct (Z_le_gt_dec max (zlen suffix)).
    + now rewrite Z.min_l by lia.
    + rewrite Z.min_r by lia. unfold zlen. rewrite Nat2Z.id.
      rewrite firstn_all. symmetry. apply firstn_all2. unfold zlen in *. lia.
  - intros p Hp. apply (last_pos_max _ _ _ _ d Hm). eapply positions_suffix; eauto.
Qed.

Lemma find_item_read v : forall recs cur items off,
  items_match v cur recs items ->
  match find_item items off with
  | Some it => exists m, find (fun x => moff x =? off) recs = Some m /\ read_at_from v cur recs (ipos it) = Ok m
  | None => find (fun x => moff x =? off) recs = None
  end.
Proof.
  induction recs as [|m r IH]; intros cur items off Hm.
  - apply items_match_nil in Hm. subst. reflexivity.
  - destruct (items_match_cons _ _ _ _ _ Hm) as (i0 & ir & -> & Ho & Hp & Hr).
    unfold find_item. cbn [find read_at_from]. rewrite Ho. destruct (moff m =? off).
    + exists m. rewrite Hp, Z.eqb_refl. split; reflexivity.
    + fold (find_item ir off). specialize (IH _ ir off Hr).
      destruct (find_item ir off) as [it|] eqn:Ef; [|exact IH].
      (* a later item lies past the first record *)
      apply find_some in Ef. pose proof (in_items_pos_ge _ _ _ _ _ Hr (proj1 Ef)). pose proof (rec_size_pos v m).
      destruct (ipos it =? cur) eqn:E1; [lia|]. destruct (ipos it <? cur + rec_size v m) eqn:E2; [lia|]. exact IH.
Qed.

Lemma read_at_last v : forall recs cur items d d',
  items_match v cur recs items -> recs <> [] ->
  read_at_from v cur recs (ipos (last items d)) = Ok (last recs d').
Proof.
  induction recs as [|m r IH]; intros cur items d d' Hm Hne; [congruence|].
  destruct (items_match_cons _ _ _ _ _ Hm) as (i0 & ir & -> & _ & Hp & Hr).
  rewrite !last_cons_self. cbn [read_at_from]. destruct r as [|m' r'].
  - apply items_match_nil in Hr. subst ir. cbn. now rewrite Hp, Z.eqb_refl.
  - assert (Hin : In (last ir i0) ir).
    { apply last_in. intros ->. destruct Hr as [Ho _]. discriminate. }
    pose proof (in_items_pos_ge _ _ _ _ _ Hr Hin). pose proof (rec_size_pos v m).
    destruct (ipos (last ir i0) =? cur) eqn:E1; [lia|].
    destruct (ipos (last ir i0) <? cur + rec_size v m) eqn:E2; [lia|]. apply IH; [exact Hr|discriminate].
Qed.

End SegProofs.
