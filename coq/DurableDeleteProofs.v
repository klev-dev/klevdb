(* C06, the fsync protocol of Delete: at every step of the complete program of a Delete, every file klevdb will read
   after a power loss - every <base>.log / <base>.index - is entirely on stable storage (Jl), except the two files of
   the writing segment and the two header-only files of a writing segment the Delete creates.  The rewritten files
   are fsynced before they are renamed over the segment's names: the steps before the swap (stepA) touch temporary
   files only, so keep Jl, and leave them durable (Jt); the steps of the swap (stepB) keep Jl and Jt together. *)
From KV Require Import Base Model ListAux LogInv CrashDir Durable DurableProofs DurableDelete DeleteProofs.
From Coq Require Import ZifyBool ZifyNat.

Definition live (f : fname) : bool := match f with FLog _ | FIdx _ => true | _ => false end.
Definition fdur (x : fstat) : Prop := durable_len x = flen x.

Definition Jl (E : list fname) (t : ftable) : Prop :=
  forall x, In x t -> live (fnm x) = true -> ~ In (fnm x) E -> fdur x.
Definition dur_named (f : fname) (t : ftable) : Prop := forall x, In x t -> fnm x = f -> fdur x.
Definition Jt (t : ftable) : Prop := dur_named FTLog t /\ dur_named FTIdx t.

Lemma Jl_mono E E' t : incl E E' -> Jl E t -> Jl E' t.
Proof. intros Hi HJ x Hx Hl Hn. apply HJ; auto. Qed.

(* dur_named f is dur_on (fun g => g = f) as it stands *)
Lemma Jl_dur_on E t : Jl E t <-> dur_on (fun f => live f = true /\ ~ In f E) t.
Proof. split; intros Hd x Hx; [intros [A B]|intros A B]; apply Hd; auto. Qed.

Lemma J_dur_on E t : Jl E t /\ Jt t <-> dur_on (fun f => live f = false \/ ~ In f E) t.
Proof.
  split.
  - intros [HJ [H1 H2]] x Hx Hs. destruct (fnm x) as [b|b| |] eqn:En; [apply HJ|apply HJ|now apply H1|now apply H2]; trivial;
      try (rewrite En; reflexivity); rewrite En; destruct Hs as [Hs|Hs]; [discriminate|exact Hs|discriminate|exact Hs].
  - intros Hd. split; [|split]; intros x Hx A; [intros B|..]; apply Hd; auto; left; rewrite A; reflexivity.
Qed.

Lemma fsync_makes_named t f : dur_named f (d_exec t (DFsync f)).
Proof. apply (fsync_dur_on (fun g => g = f)). intros x _ [A B]. contradiction. Qed.

Lemma remove_dur_on (S : fname -> Prop) f t : dur_on S t -> dur_on S (x_exec t (XRemove f)).
Proof. intros Hd y Hy. cbn [x_exec] in Hy. apply filter_In in Hy. now apply Hd. Qed.

Lemma in_rename t a b y :
  In y (x_exec t (XRename a b)) ->
  exists x, In x t /\ (fnm x = a /\ y = mkF b (flen x) (fsyn x) \/ fnm x <> a /\ y = x).
Proof.
  cbn [x_exec]. rewrite in_map_iff. intros (x & <- & Hx). apply filter_In in Hx. exists x. split; [apply Hx|].
  destruct (fname_eqb_spec (fnm x) a); auto.
Qed.

(* a file keeps its fsynced length when it is renamed *)
Lemma rename_dur_on (S : fname -> Prop) a b t : (S b -> dur_named a t) -> dur_on S t -> dur_on S (x_exec t (XRename a b)).
Proof.
  intros Ha Hd y Hy Hs. apply in_rename in Hy as (x & Hx & [[E ->]|[_ ->]]); [|now apply Hd]. exact (Ha Hs x Hx E).
Qed.

(* nothing the step does can leave a file with a name in S less than durable *)
Definition spares (S : fname -> Prop) (o : xop) : Prop :=
  match o with
  | XD (DFsync _) | XRemove _ => True
  | XD (DCreate f _) | XD (DWrite f _) | XRename _ f => ~ S f
  end.

Lemma spares_dur_on S t o : spares S o -> dur_on S t -> dur_on S (x_exec t o).
Proof.
  destruct o as [[f n|f n|f]|a b|f]; cbn [spares x_exec]; intros Hs Hd.
  - now apply create_dur_on. - now apply write_dur_on. - now apply fsync_keeps_dur_on.
  - apply rename_dur_on; [intros Hb; contradiction|exact Hd]. - now apply remove_dur_on.
Qed.

Lemma run_spares S : forall prog t, Forall (spares S) prog -> dur_on S t -> dur_on S (x_run t prog).
Proof.
  induction prog as [|o prog IH]; intros t HF Hd; [exact Hd|]. inversion HF; subst. cbn [x_run fold_left].
  apply IH; [assumption|]. now apply spares_dur_on.
Qed.

Definition stepA (o : xop) : Prop :=
  match o with
  | XD (DFsync _) => True
  | XD (DCreate f _) | XD (DWrite f _) => live f = false
  | _ => False
  end.

Definition stepB (E : list fname) (o : xop) : Prop :=
  match o with
  | XRename a b => live a = false /\ live b = true
  | XRemove _ => True
  | XD (DCreate f _) => In f E /\ live f = true
  | _ => False
  end.

Lemma stepA_spares (S : fname -> Prop) o : (forall f, S f -> live f = true) -> stepA o -> spares S o.
Proof.
  intros HS. destruct o as [[f n|f n|f]| |]; cbn [stepA spares]; trivial; intros Hf Hs; apply HS in Hs; congruence.
Qed.

Lemma runA_Jl E prog t : Forall stepA prog -> Jl E t -> Jl E (x_run t prog).
Proof.
  intros HF HJ. apply Jl_dur_on, run_spares; [|now apply Jl_dur_on].
  revert HF. apply Forall_impl. intros o. apply stepA_spares. tauto.
Qed.

(* a renamed temporary file is durable by Jt; a created file is in E *)
Lemma stepB_J E t o : stepB E o -> Jl E t /\ Jt t -> Jl E (x_exec t o) /\ Jt (x_exec t o).
Proof.
  intros Ho HJ. apply J_dur_on. apply J_dur_on in HJ. destruct o as [[f n|f n|f]|a b|f]; cbn [stepB] in Ho; try contradiction.
  - apply create_dur_on; [|exact HJ]. destruct Ho as [Hin Hl]. intros [A|A]; [congruence|contradiction].
  - apply rename_dur_on; [|exact HJ]. intros _ x Hx E0. apply HJ; [exact Hx|]. left. rewrite E0. apply Ho.
  - now apply remove_dur_on.
Qed.

Lemma stepB_mono E E' o : incl E E' -> stepB E o -> stepB E' o.
Proof. intros Hi. destruct o as [[f n|f n|f]|a b|f]; cbn [stepB]; auto. intros [H1 H2]. split; auto. Qed.

Lemma runB_J E : forall prog t, Forall (stepB E) prog -> Jl E t /\ Jt t -> Jl E (x_run t prog) /\ Jt (x_run t prog).
Proof.
  induction prog as [|o prog IH]; intros t HF HJ; [exact HJ|]. inversion HF; subst. cbn [x_run fold_left].
  apply IH; [assumption|]. now apply stepB_J.
Qed.

Lemma x_run_app t a b : x_run t (a ++ b) = x_run (x_run t a) b.
Proof. unfold x_run. apply fold_left_app. Qed.

Lemma x_run_XD t l : x_run t (map XD l) = d_run t l.
Proof. revert t. induction l as [|o l IH]; intros t; [reflexivity|]. cbn [map x_run d_run fold_left x_exec]. apply IH. Qed.

Lemma rewrite_then_swap E pa pb t :
  Forall stepA pa -> (forall t0, Jt (x_run t0 pa)) -> Forall (stepB E) pb -> Jl E t ->
  Jl E (x_run t (pa ++ pb)) /\ Jt (x_run t (pa ++ pb)).
Proof. intros HA HT HB HJ. rewrite x_run_app. apply runB_J; [exact HB|]. split; [now apply runA_Jl|apply HT]. Qed.

(* the copy of the survivors into a new file f, as in DurableDelete.rewrite_ops *)
Lemma copy_Forall (P : xop -> Prop) f n (g : msg -> Z) sv :
  P (XD (DCreate f n)) -> (forall k, P (XD (DWrite f k))) -> P (XD (DFsync f)) ->
  Forall P (XD (DCreate f n) :: map (fun m => XD (DWrite f (g m))) sv ++ [XD (DFsync f)]).
Proof.
  intros Hc Hw Hs. constructor; [exact Hc|]. apply Forall_app. split; [|repeat constructor; exact Hs].
  apply Forall_forall. intros o Ho. apply in_map_iff in Ho. destruct Ho as (m & <- & _). apply Hw.
Qed.

Lemma rewrite_ops_stepA v p sv : Forall stepA (rewrite_ops v p sv).
Proof. apply Forall_app. split; now apply copy_Forall. Qed.

Lemma copy_named f n (g : msg -> Z) sv t :
  dur_named f (x_run t (XD (DCreate f n) :: map (fun m => XD (DWrite f (g m))) sv ++ [XD (DFsync f)])).
Proof. change (?o :: ?l ++ ?e) with ((o :: l) ++ e). rewrite x_run_app. apply fsync_makes_named. Qed.

Lemma rewrite_ops_Jt v p sv t : Jt (x_run t (rewrite_ops v p sv)).
Proof.
  unfold rewrite_ops. rewrite x_run_app. split; [|apply copy_named].
  apply (run_spares (fun h => h = FTLog)); [now apply copy_Forall|apply copy_named].
Qed.

Lemma is_last_last st i src : is_last st i = true -> znth (segs st) i = Some src -> last_opt (segs st) = Some src.
Proof. unfold is_last. intros Hi Hz. rewrite last_opt_znth. replace (zlen (segs st) - 1) with i by lia. exact Hz. Qed.

Definition exempt (st : lstate) : list fname :=
  [FLog (head_base st); FIdx (head_base st); FLog (next_of st); FIdx (next_of st)].

Definition cr (o : fsop) : list fname := match o with CreateLog b _ => [FLog b] | CreateIdx b => [FIdx b] | _ => [] end.

Lemma tr_stepB v prog : Forall (stepB (flat_map cr prog)) (flat_map (tr v) prog).
Proof.
  apply Forall_forall. intros o Ho. apply in_flat_map in Ho. destruct Ho as (f & Hf & Ho).
  assert (Hcr : incl (cr f) (flat_map cr prog)) by (intros g Hg; apply in_flat_map; now exists f).
  destruct f; cbn [tr In] in Ho; repeat (destruct Ho as [<-|Ho]; [cbn [stepB live]; auto|]); try contradiction.
  all: split; [apply Hcr; now left|reflexivity].
Qed.

(* the swap creates nothing, or the two files of a new writing segment at NextOffset: the latter only when the
   target is the writing segment and its newest message goes *)
Lemma swap_creates st offs :
  match target st offs with
  | None => delete_prog st offs = []
  | Some (c, i, src) =>
    flat_map cr (delete_prog st offs) = [] \/
    is_last st i = true /\ flat_map cr (delete_prog st offs) = [FLog (next_of st); FIdx (next_of st)] /\
    exists m, last_opt (filter (fun m => zmem (moff m) offs) (srecs src)) = Some m /\
      (filter (fun m => negb (zmem (moff m) offs)) (srecs src) = [] \/ moff m = next_of st - 1)
  end.
Proof.
  unfold delete_prog. rewrite target_walk. destruct (target st offs) as [[[c i] src]|] eqn:T; [|reflexivity].
  pose proof (target_znth st offs c i src T) as Hz.
  destruct (filter (fun m => zmem (moff m) offs) (srecs src)) as [|d ds]; [now left|].
  destruct (is_last st i) eqn:Hl.
  - assert (Hn : idx_next src (head_items src) = next_of st) by (unfold next_of; now rewrite (is_last_last st i src Hl Hz)).
    rewrite Hn.
    assert (Hlast : last_opt (d :: ds) = Some (last ds d)) by reflexivity. rewrite Hlast.
    destruct (filter (fun m => negb (zmem (moff m) offs)) (srecs src)) as [|m0 sv].
    { right. split; [reflexivity|]. split; [reflexivity|]. exists (last ds d). auto. }
    destruct (moff (last ds d) =? next_of st - 1) eqn:Et; cbn [app].
    + right. split; [reflexivity|]. split; [destruct (moff m0 =? sbase src); reflexivity|]. exists (last ds d). split; [reflexivity|lia].
    + left. destruct (moff m0 =? sbase src); reflexivity.
  - left. destruct (filter (fun m => negb (zmem (moff m) offs)) (srecs src)) as [|m0 sv]; [reflexivity|].
    destruct (moff m0 =? sbase src); reflexivity.
Qed.

Lemma swap_stepB st offs v : Forall (stepB (exempt st)) (flat_map (tr v) (delete_prog st offs)).
Proof.
  pose proof (tr_stepB v (delete_prog st offs)) as HB. revert HB. apply Forall_impl. intros o. apply stepB_mono.
  pose proof (swap_creates st offs) as Hc. destruct (target st offs) as [[[c i] src]|]; [|rewrite Hc; apply incl_nil_l].
  destruct Hc as [->|(_ & -> & _)]; [apply incl_nil_l|]. unfold exempt. intros f [<-|[<-|[]]]; cbn [In]; auto.
Qed.

Definition is_fsync (o : xop) : Prop := match o with XD (DFsync _) => True | _ => False end.

Lemma sync_is_fsync b : Forall is_fsync (map XD (sync_ops b)).
Proof. repeat constructor. Qed.

Lemma fsyncs_stepA l : Forall is_fsync l -> Forall stepA l.
Proof. apply Forall_impl. now intros [[| |]| |]. Qed.

Lemma fsyncs_spare S l : Forall is_fsync l -> Forall (spares S) l.
Proof. apply Forall_impl. now intros [[| |]| |]. Qed.

Lemma fsyncs_Jt l t : Forall is_fsync l -> Jt t -> Jt (x_run t l).
Proof.
  intros Hl [H1 H2]. split; [apply (run_spares (fun g => g = FTLog))|apply (run_spares (fun g => g = FTIdx))];
    auto using fsyncs_spare.
Qed.

(* writer.Sync when the target is the writing segment, then the rewrite, then the swap *)
Lemma delete_full_shape st offs :
  match target st offs with
  | None => delete_full st offs = []
  | Some (c, i, src) => exists pa,
    delete_full st offs =
      (if is_last st i then map XD (sync_ops (sbase src)) else []) ++ pa ++ flat_map (tr (cnewver c)) (delete_prog st offs) /\
    Forall stepA pa /\ (forall t, Jt (x_run t pa))
  end.
Proof.
  unfold delete_full. rewrite target_walk. destruct (target st offs) as [[[c i] src]|]; [|reflexivity].
  set (sync := if is_last st i then map XD (sync_ops (sbase src)) else []).
  set (sync2 := match filter _ (srecs src) with [] => [] | _ :: _ => sync end). set (rw := rewrite_ops _ _ _).
  assert (Hs2 : Forall is_fsync sync2).
  { unfold sync2, sync. destruct (filter _ _); [constructor|]. destruct (is_last st i); [apply sync_is_fsync|constructor]. }
  exists (rw ++ sync2). split; [now rewrite <- app_assoc|]. split.
  - apply Forall_app. split; [apply rewrite_ops_stepA|now apply fsyncs_stepA].
  - intros t. rewrite x_run_app. apply fsyncs_Jt; [exact Hs2|apply rewrite_ops_Jt].
Qed.

(* writer.Sync counts among the steps before the swap *)
Lemma delete_full_split st offs :
  delete_full st offs = [] \/
  exists pa pb, delete_full st offs = pa ++ pb /\ Forall stepA pa /\ (forall t, Jt (x_run t pa)) /\ Forall (stepB (exempt st)) pb.
Proof.
  pose proof (delete_full_shape st offs) as Hs. destruct (target st offs) as [[[c i] src]|]; [right|now left].
  destruct Hs as (pa & E & HA & HT). set (sync := if is_last st i then _ else _) in E.
  assert (Hs : Forall is_fsync sync) by (unfold sync; destruct (is_last st i); [apply sync_is_fsync|constructor]).
  exists (sync ++ pa), (flat_map (tr (cnewver c)) (delete_prog st offs)). split; [now rewrite <- app_assoc|]. split; [|split].
  - apply Forall_app. split; [now apply fsyncs_stepA|exact HA].
  - intros t. rewrite x_run_app. apply HT.
  - apply swap_stepB.
Qed.

(* k: after every step of a Delete.  exempt: the files of the writing segment and of the one the Delete creates *)
Theorem delete_steps_keep_durable st offs t k :
  Jl (exempt st) t -> Jl (exempt st) (x_run t (firstn k (delete_full st offs))).
Proof.
  intros HJ. destruct (delete_full_split st offs) as [->|(pa & pb & -> & HA & HT & HB)]; [now destruct k|].
  rewrite firstn_app.
  destruct (Nat.le_gt_cases (length pa) k) as [Hge|Hlt].
  - rewrite (firstn_all2 pa) by lia. apply rewrite_then_swap; [exact HA|exact HT|now apply Forall_firstn|exact HJ].
  - replace (k - length pa)%nat with O by lia. rewrite app_nil_r. apply runA_Jl; [now apply Forall_firstn|exact HJ].
Qed.

(* sealed_durable is what Publish, Sync and Close maintain *)
Lemma sealed_Jl hb t : sealed_durable hb t -> Jl [FLog hb; FIdx hb] t.
Proof. intros HS x Hx Hl Hn. apply HS; [exact Hx| |]; intro E; apply Hn; rewrite E; cbn [In]; auto. Qed.

Theorem delete_keeps_sealed_durable st offs t k :
  sealed_durable (head_base st) t -> Jl (exempt st) (x_run t (firstn k (delete_full st offs))).
Proof.
  intros HS. apply delete_steps_keep_durable. apply sealed_Jl in HS. revert HS. apply Jl_mono.
  intros f Hf. unfold exempt. cbn [In] in *. tauto.
Qed.

(* a segment file that replaces another during the swap is durable when it takes the name *)
Theorem delete_end_durable st offs t :
  Jl (exempt st) t -> delete_full st offs <> [] ->
  Jl (exempt st) (x_run t (delete_full st offs)) /\ Jt (x_run t (delete_full st offs)).
Proof.
  intros HJ Hne. destruct (delete_full_split st offs) as [E|(pa & pb & -> & HA & HT & HB)]; [contradiction|].
  now apply rewrite_then_swap.
Qed.
