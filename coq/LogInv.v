(* LogInv.v — the invariant Inv of the segment-list model and the abstraction abs to the L0 log of Spec.v.
   Loading an index (reader.getIndexNow, with_index in Model.v) replaces one segment by one of the same_shape; states
   related by st_shape have the same abs, and with_index keeps Inv. *)
From KV Require Import Base Model ListAux SearchProofs SegProofs ReaderProofs Spec.
From Coq Require Import ZifyBool ZifyNat.

Lemma replace_nth_Forall {A} (P : A -> Prop) (l : list A) n x :
  Forall P l -> P x -> Forall P (replace_nth n l x).
Proof.
  revert n; induction l as [|a l IH]; intros n HF Hx; [destruct n; constructor|].
  inversion HF; subst. destruct n; cbn; constructor; auto.
Qed.

Lemma replace_nth_length {A} (l : list A) n x : length (replace_nth n l x) = length l.
Proof. revert n; induction l as [|a l IH]; intros [|n]; cbn; auto. Qed.

Lemma replace_nth_nth {A} (l : list A) n x : (n < length l)%nat -> nth_error (replace_nth n l x) n = Some x.
Proof. revert n; induction l as [|a l IH]; intros [|n] Hl; cbn in *; try lia; auto. apply IH. lia. Qed.

Lemma replace_nth_other {A} (l : list A) n k x : n <> k -> nth_error (replace_nth n l x) k = nth_error l k.
Proof.
  revert n k; induction l as [|a l IH]; intros [|n] [|k] Hne; cbn; auto; try congruence.
Qed.

Lemma replace_nth_app {A} (a : list A) x b y : replace_nth (length a) (a ++ x :: b) y = a ++ y :: b.
Proof. induction a as [|z a IH]; cbn; [reflexivity|]. now rewrite IH. Qed.

Lemma replace_last {A} (pre : list A) x y : replace_nth (length (pre ++ [x]) - 1) (pre ++ [x]) y = pre ++ [y].
Proof.
  rewrite app_length. cbn [length]. replace (length pre + 1 - 1)%nat with (length pre) by lia. apply replace_nth_app.
Qed.

Lemma last_opt_znth {A} (l : list A) : last_opt l = znth l (zlen l - 1).
Proof.
  destruct l as [|a l]; [reflexivity|].
  rewrite (znth_last (a :: l) a) by discriminate. apply last_opt_last. discriminate.
Qed.

Lemma znth_replace_same {A} (l : list A) i x :
  0 <= i < zlen l -> znth (replace_nth (Z.to_nat i) l x) i = Some x.
Proof.
  intros Hi. unfold znth. destruct (i <? 0) eqn:E; [lia|]. apply replace_nth_nth. unfold zlen in Hi. lia.
Qed.

Lemma znth_replace_other {A} (l : list A) i j x :
  0 <= i -> i <> j -> znth (replace_nth (Z.to_nat i) l x) j = znth l j.
Proof.
  intros Hi Hne. unfold znth. destruct (j <? 0) eqn:E; [reflexivity|]. apply replace_nth_other. lia.
Qed.

Section LogInv.
Variable H : bytes -> Z.

Definition first_is_base (s : seg) : Prop :=
  match srecs s with [] => True | m :: _ => moff m = sbase s end.

Definition idx_inv (s : seg) : Prop :=
  forall iv items, sidx s = Some (iv, items) ->
    items = [] \/ items_match (sver s) (hdr_size (sver s)) (srecs s) items.

Definition seg_inv (s : seg) : Prop :=
  recs_sorted (srecs s) /\ (forall m, In m (srecs s) -> 0 <= moff m) /\
  first_is_base s /\ idx_inv s /\ 0 <= sbase s.

(* the head of a read-write log always has its complete index in place *)
Definition head_inv (s : seg) : Prop :=
  exists iv items, sidx s = Some (iv, items) /\
                   items_match (sver s) (hdr_size (sver s)) (srecs s) items.

Fixpoint chain_ok (l : list seg) : Prop :=
  match l with
  | [] => True
  | s1 :: r =>
    match r with
    | [] => True
    | s2 :: _ => sbase s1 < sbase s2 /\ (forall m, In m (srecs s1) -> moff m < sbase s2)
                 /\ srecs s1 <> []
    end /\ chain_ok r
  end.

Definition Inv (st : lstate) : Prop :=
  segs st <> [] /\ Forall seg_inv (segs st) /\ chain_ok (segs st) /\ lvirt st = false /\
  exists c, opened st = Some c /\
            (cro c = false -> match last_opt (segs st) with Some hd => head_inv hd | None => False end).

Definition all_recs (l : list seg) : list msg := concat (map srecs l).

Definition wnext (st : lstate) : Z :=
  match last_opt (segs st) with Some hd => recs_next hd | None => 0 end.

Definition abs (st : lstate) : alog := mkAlog (all_recs (segs st)) (wnext st).

Lemma Inv_segs_ne st : Inv st -> segs st <> [].
Proof. intros (Hne & _). exact Hne. Qed.

Lemma Inv_seg_inv st : Inv st -> Forall seg_inv (segs st).
Proof. intros (_ & HF & _). exact HF. Qed.

Lemma Inv_chain st : Inv st -> chain_ok (segs st).
Proof. intros (_ & _ & Hch & _). exact Hch. Qed.

Lemma Inv_lvirt st : Inv st -> lvirt st = false.
Proof. intros (_ & _ & _ & Hv & _). exact Hv. Qed.

Lemma Inv_opened st : Inv st -> exists c, opened st = Some c.
Proof. intros (_ & _ & _ & _ & c & Hc & _). now exists c. Qed.

Lemma Inv_head st c :
  Inv st -> opened st = Some c -> cro c = false -> exists hd, last_opt (segs st) = Some hd /\ head_inv hd.
Proof.
  intros (_ & _ & _ & _ & c' & Hc' & Hhead) Hc Hro. rewrite Hc in Hc'. injection Hc' as <-.
  specialize (Hhead Hro). destruct (last_opt (segs st)) as [hd|]; [now exists hd|contradiction].
Qed.

Lemma Inv_snoc pre hd w c :
  Forall seg_inv (pre ++ [hd]) -> chain_ok (pre ++ [hd]) -> (cro c = false -> head_inv hd) ->
  Inv (mkState (pre ++ [hd]) w (Some c) false).
Proof.
  intros HF Hch Hh. split; [cbn; destruct pre; discriminate|]. split; [exact HF|]. split; [exact Hch|].
  split; [reflexivity|]. exists c. split; [reflexivity|]. cbn [segs]. now rewrite last_opt_app.
Qed.

Lemma Inv_writer st c :
  Inv st -> opened st = Some c -> cro c = false ->
  exists pre hd, segs st = pre ++ [hd] /\ Forall seg_inv (pre ++ [hd]) /\ chain_ok (pre ++ [hd]) /\ head_inv hd.
Proof.
  intros HI Hc Hro. destruct (Inv_head st c HI Hc Hro) as (hd & El & Hh).
  destruct (last_opt_some_app _ _ El) as (pre & Es). exists pre, hd. split; [exact Es|]. rewrite <- Es.
  split; [exact (Inv_seg_inv st HI)|]. split; [exact (Inv_chain st HI)|exact Hh].
Qed.

Lemma Inv_last st c pre hd : Inv st -> opened st = Some c -> cro c = false -> segs st = pre ++ [hd] -> head_inv hd.
Proof.
  intros HI Hc Hro Es. destruct (Inv_head st c HI Hc Hro) as (hd' & El & Hh).
  rewrite Es, last_opt_app in El. now injection El as <-.
Qed.

Lemma get_cfg_opened st c : opened st = Some c -> get_cfg st = Ok c.
Proof. intros Hc. unfold get_cfg. now rewrite Hc. Qed.

Lemma get_cfg_closed st : opened st = None -> get_cfg st = Err EClosed.
Proof. intros Ho. unfold get_cfg. now rewrite Ho. Qed.

Lemma bind_cfg {A} st (f : cfg -> res A) r :
  (do c <- get_cfg st; f c) = Ok r -> exists c, opened st = Some c /\ f c = Ok r.
Proof.
  destruct (opened st) as [c|] eqn:Ho; [rewrite (get_cfg_opened st c Ho)|now rewrite (get_cfg_closed st Ho)].
  intros E. now exists c.
Qed.

Lemma all_recs_app a b : all_recs (a ++ b) = all_recs a ++ all_recs b.
Proof. unfold all_recs. now rewrite map_app, concat_app. Qed.

Lemma all_recs_cons s l : all_recs (s :: l) = srecs s ++ all_recs l.
Proof. reflexivity. Qed.

Lemma in_all_recs m l : In m (all_recs l) -> exists s, In s l /\ In m (srecs s).
Proof.
  unfold all_recs. intros Hin. apply in_concat in Hin. destruct Hin as (x & Hx & Hm).
  apply in_map_iff in Hx. destruct Hx as (s & <- & Hs). eauto.
Qed.

Lemma all_recs_in_seg l s m : In s l -> In m (srecs s) -> In m (all_recs l).
Proof. intros Hs Hm. unfold all_recs. apply in_concat. exists (srecs s). split; [apply in_map; exact Hs|exact Hm]. Qed.

Lemma all_recs_nil_head pre hd : srecs hd = [] -> all_recs (pre ++ [hd]) = all_recs pre.
Proof. intros E. rewrite all_recs_app, all_recs_cons, E. unfold all_recs at 2. cbn. now rewrite !app_nil_r. Qed.

Lemma last_opt_all_recs pre s : srecs s <> [] -> last_opt (all_recs (pre ++ [s])) = last_opt (srecs s).
Proof.
  intros Hne. rewrite all_recs_app, all_recs_cons. unfold all_recs at 2. cbn [map concat]. rewrite app_nil_r.
  now apply last_opt_app2.
Qed.

Lemma seg_offsets_ge_base s m : seg_inv s -> In m (srecs s) -> sbase s <= moff m.
Proof.
  intros (Hs & _ & Hfb & _) Hin. unfold first_is_base in Hfb.
  destruct (srecs s) as [|m0 r]; [contradiction|]. destruct Hin as [<-|Hin]; [lia|].
  pose proof (recs_sorted_head_lt m0 r m Hs Hin). lia.
Qed.

Lemma recs_next_nonneg s : seg_inv s -> 0 <= recs_next s.
Proof.
  intros (_ & Hnn & _ & _ & Hb). unfold recs_next. destruct (last_opt (srecs s)) as [m|] eqn:E; [|assumption].
  apply last_opt_in in E. specialize (Hnn m E). lia.
Qed.

Lemma recs_lt_next s m : seg_inv s -> In m (srecs s) -> moff m < recs_next s.
Proof.
  intros (Hs & _) Hin. unfold recs_next.
  assert (Hne : srecs s <> []) by (destruct (srecs s); [contradiction|discriminate]).
  rewrite (last_opt_last (srecs s) m Hne).
  pose proof (sorted_lt_le_last (map moff (srecs s)) (moff m) (moff m) Hs (in_map moff _ _ Hin)) as Hle.
  rewrite last_map' in Hle. lia.
Qed.

Lemma recs_next_ge_base s : seg_inv s -> sbase s <= recs_next s.
Proof.
  intros Hinv. unfold recs_next. destruct (last_opt (srecs s)) as [m|] eqn:E; [|lia].
  apply last_opt_in in E. pose proof (seg_offsets_ge_base s m Hinv E). lia.
Qed.

Lemma chain_ok_tail a l : chain_ok (a :: l) -> chain_ok l.
Proof. cbn. tauto. Qed.

Lemma chain_ok_app_r pre l : chain_ok (pre ++ l) -> chain_ok l.
Proof. induction pre as [|a pre IH]; [trivial|]. cbn [app]. intros Hc. apply IH. eapply chain_ok_tail; eauto. Qed.

Lemma chain_base_lt a l s : chain_ok (a :: l) -> In s l -> sbase a < sbase s.
Proof.
  revert a; induction l as [|b l IH]; intros a Hc Hin; [contradiction|].
  cbn in Hc. destruct Hc as [(Hlt & _) Ht]. destruct Hin as [<-|Hin]; [assumption|].
  specialize (IH b Ht Hin). lia.
Qed.

Lemma chain_pre_base_lt pre s post : chain_ok (pre ++ s :: post) -> forall x, In x pre -> sbase x < sbase s.
Proof.
  intros Hc x Hx. destruct (in_split _ _ Hx) as (a & b & ->). rewrite <- app_assoc in Hc. apply chain_ok_app_r in Hc.
  apply (chain_base_lt x (b ++ s :: post) s Hc). apply in_or_app. right. now left.
Qed.

Lemma chain_pre_bases pre s post : chain_ok (pre ++ s :: post) -> forall x, In x pre -> sbase x <> sbase s.
Proof. intros Hc x Hx. pose proof (chain_pre_base_lt pre s post Hc x Hx). lia. Qed.

Lemma chain_offsets_lt a l s m : chain_ok (a :: l) -> In s l -> In m (srecs a) -> moff m < sbase s.
Proof.
  intros Hc Hin Hm. destruct l as [|b l]; [contradiction|].
  pose proof Hc as Hc'. cbn in Hc. destruct Hc as [(Hlt & Hoff & _) Ht].
  specialize (Hoff m Hm). destruct Hin as [<-|Hin]; [assumption|].
  pose proof (chain_base_lt b l s Ht Hin). lia.
Qed.

Lemma chain_pre_lt pre s post m :
  chain_ok (pre ++ s :: post) -> In m (all_recs pre) -> moff m < sbase s.
Proof.
  induction pre as [|a pre IH]; intros Hc Hin; [contradiction|].
  rewrite all_recs_cons in Hin. apply in_app_or in Hin. destruct Hin as [Hin|Hin].
  - cbn [app] in Hc. eapply chain_offsets_lt; eauto. apply in_elt.
  - apply IH; [|exact Hin]. cbn [app] in Hc. eapply chain_ok_tail; eauto.
Qed.

Lemma chain_nonhead_nonempty pre s post : chain_ok (pre ++ s :: post) -> post <> [] -> srecs s <> [].
Proof.
  intros Hc Hp. apply chain_ok_app_r in Hc. destruct post as [|b post]; [congruence|].
  cbn in Hc. tauto.
Qed.

Lemma chain_empty_last pre s post : chain_ok (pre ++ s :: post) -> srecs s = [] -> post = [].
Proof.
  intros Hc E. destruct post as [|b post]; [reflexivity|]. exfalso.
  apply (chain_nonhead_nonempty pre s (b :: post) Hc); [discriminate|exact E].
Qed.

Lemma znth_bases l i : znth (bases l) i = option_map sbase (znth l i).
Proof. unfold bases. apply znth_map. Qed.

Lemma bases_nonneg l b : Forall seg_inv l -> In b (bases l) -> 0 <= b.
Proof.
  intros HF Hin. unfold bases in Hin. apply in_map_iff in Hin. destruct Hin as (s & <- & Hs).
  rewrite Forall_forall in HF. destruct (HF s Hs) as (_ & _ & _ & _ & Hb). exact Hb.
Qed.

Lemma bases_sorted l : chain_ok l -> sorted_lt (bases l).
Proof.
  induction l as [|a l IH]; intros Hc; [exact sorted_lt_nil|].
  apply sorted_lt_cons; [|exact (IH (chain_ok_tail _ _ Hc))].
  intros b Hb. apply in_map_iff in Hb. destruct Hb as (s & <- & Hs). exact (chain_base_lt a l s Hc Hs).
Qed.

Lemma wnext_split st pre s post : segs st = pre ++ s :: post -> wnext st = recs_next (last post s).
Proof. intros E. unfold wnext. rewrite E, last_opt_app2 by discriminate. reflexivity. Qed.

Lemma abs_snoc st pre hd : segs st = pre ++ [hd] -> abs st = mkAlog (all_recs (pre ++ [hd])) (recs_next hd).
Proof. intros E. unfold abs, wnext. now rewrite E, last_opt_app. Qed.

Lemma live_lt_wnext l hd m :
  Forall seg_inv l -> chain_ok l -> last_opt l = Some hd -> In m (all_recs l) -> moff m < recs_next hd.
Proof.
  intros HF Hch Hl Hin. destruct (last_opt_some_app _ _ Hl) as (pre & ->).
  apply Forall_app in HF. destruct HF as [_ HF]. apply Forall_inv in HF.
  rewrite all_recs_app in Hin. apply in_app_or in Hin. destruct Hin as [Hin|Hin].
  - pose proof (chain_pre_lt pre hd [] m Hch Hin). pose proof (recs_next_ge_base hd HF). lia.
  - apply recs_lt_next; [exact HF|]. rewrite all_recs_cons in Hin. apply in_app_or in Hin. destruct Hin as [Hin|[]]. exact Hin.
Qed.

Lemma base_le_wnext st s :
  Forall seg_inv (segs st) -> chain_ok (segs st) -> In s (segs st) -> sbase s <= wnext st.
Proof.
  intros HF Hch Hin. destruct (in_split _ _ Hin) as (p & q & E). rewrite (wnext_split st p s q E).
  rewrite E in HF, Hch. apply chain_ok_app_r in Hch. rewrite Forall_forall in HF.
  destruct q as [|b q]; [apply recs_next_ge_base, HF, in_elt|].
  assert (Hl : In (last (b :: q) s) (b :: q)) by (apply last_in; discriminate).
  pose proof (chain_base_lt s (b :: q) _ Hch Hl).
  pose proof (recs_next_ge_base _ (HF _ ltac:(apply in_or_app; right; right; exact Hl))). lia.
Qed.

Lemma is_last_split st pre s post :
  segs st = pre ++ s :: post ->
  is_last st (zlen pre) = match post with [] => true | _ :: _ => false end /\
  (zlen pre <? zlen (segs st) - 1) = match post with [] => false | _ :: _ => true end.
Proof.
  intros E. unfold is_last. rewrite E, zlen_app, zlen_cons. destruct post as [|b post].
  - change (zlen (@nil seg)) with 0. lia.
  - rewrite zlen_cons. pose proof (zlen_nonneg post). lia.
Qed.

(* only the index file differs *)
Definition same_shape (s s' : seg) : Prop :=
  srecs s' = srecs s /\ sbase s' = sbase s /\ sver s' = sver s.

Lemma same_shape_refl s : same_shape s s.
Proof. repeat split. Qed.

Lemma same_shape_trans a b c : same_shape a b -> same_shape b c -> same_shape a c.
Proof. intros (? & ? & ?) (? & ? & ?). repeat split; congruence. Qed.

Lemma same_shape_all l : Forall2 same_shape l l.
Proof. induction l; constructor; [apply same_shape_refl|assumption]. Qed.

Lemma same_shape_recs_next s s' : same_shape s s' -> recs_next s' = recs_next s.
Proof. intros (Hr & Hb & _). unfold recs_next. now rewrite Hr, Hb. Qed.

Lemma chain_ok_shape l l' : Forall2 same_shape l l' -> chain_ok l -> chain_ok l'.
Proof.
  intros HF. induction HF as [|s s' r r' Hs HF IH]; [trivial|].
  cbn [chain_ok]. intros [Hh Ht]. split; [|apply IH; exact Ht].
  destruct HF as [|s2 s2' r2 r2' Hs2 HF2]; [trivial|].
  destruct Hs as (Hr & Hb & _). destruct Hs2 as (Hr2 & Hb2 & _).
  rewrite Hr, Hb, Hb2. exact Hh.
Qed.

Lemma all_recs_shape l l' : Forall2 same_shape l l' -> all_recs l' = all_recs l.
Proof.
  intros HF. unfold all_recs. f_equal. apply (Forall2_map_eq same_shape); [|exact HF]. now intros a b (Hr & _).
Qed.

Lemma bases_shape l l' : Forall2 same_shape l l' -> bases l' = bases l.
Proof. apply (Forall2_map_eq same_shape). now intros a b (_ & Hb & _). Qed.

Lemma last_opt_shape l l' :
  Forall2 same_shape l l' ->
  match last_opt l, last_opt l' with
  | Some a, Some b => same_shape a b
  | None, None => True
  | _, _ => False
  end.
Proof.
  intros HF. induction HF as [|s s' r r' Hs HF IH]; [exact I|].
  destruct HF as [|s2 s2' r2 r2' Hs2 HF2]; [exact Hs|].
  rewrite !last_opt_cons_cons. exact IH.
Qed.

Lemma replace_nth_shape (l : list seg) n s s' :
  nth_error l n = Some s -> same_shape s s' -> Forall2 same_shape l (replace_nth n l s').
Proof.
  revert n; induction l as [|a l IH]; intros n Hn Hs; [destruct n; discriminate|].
  destruct n as [|n]; cbn in *.
  - injection Hn as ->. constructor; [assumption|apply same_shape_all].
  - constructor; [apply same_shape_refl|]. now apply IH.
Qed.

Definition st_shape (st st1 : lstate) : Prop :=
  Forall2 same_shape (segs st) (segs st1) /\ opened st1 = opened st /\ lvirt st1 = lvirt st
  /\ wcarry st1 = wcarry st.

Lemma st_shape_refl st : st_shape st st.
Proof. split; [apply same_shape_all|repeat split]. Qed.

Lemma st_shape_trans a b c : st_shape a b -> st_shape b c -> st_shape a c.
Proof.
  intros (Hab & ? & ? & ?) (Hbc & ? & ? & ?). split; [|repeat split; congruence].
  exact (Forall2_trans same_shape same_shape_trans _ _ _ Hab Hbc).
Qed.

Lemma st_shape_abs st st1 : st_shape st st1 -> abs st1 = abs st.
Proof.
  intros (HF & _). unfold abs, wnext. rewrite (all_recs_shape _ _ HF).
  pose proof (last_opt_shape _ _ HF) as Hl.
  destruct (last_opt (segs st)), (last_opt (segs st1)); try contradiction; [|reflexivity].
  now rewrite (same_shape_recs_next _ _ Hl).
Qed.

Lemma head_inv_shape_same s : head_inv s -> head_inv s.
Proof. trivial. Qed.

Lemma seg_inv_open_log s : seg_inv s -> open_log_reader s = Ok (sver s).
Proof.
  intros (_ & _ & Hfb & _). unfold open_log_reader, first_is_base in *.
  destruct (sver s); [|reflexivity]. destruct (srecs s) as [|m r]; [reflexivity|].
  rewrite Hfb, Z.eqb_refl. reflexivity.
Qed.

Lemma seg_inv_seg_ok s items :
  seg_inv s -> items_match (sver s) (hdr_size (sver s)) (srecs s) items -> seg_ok s items.
Proof. intros (Hs & Hnn & _) Hm. split; [exact Hm|split; assumption]. Qed.

Lemma seg_inv_set_idx p s iv :
  seg_inv s -> seg_inv (set_idx s (Some (iv, derive H p (sver s) (srecs s)))).
Proof.
  intros (Hs & Hnn & Hfb & Hix & Hb). repeat split; try assumption.
  intros iv' items' E. cbn in E. injection E as <- <-. right. apply derive_from_match.
Qed.

(* segment.ReindexAndReadIndex through reader.getIndexNow *)
Lemma ensure_index_ok p newv s :
  seg_inv s ->
  exists s' items, ensure_index H p newv s = Ok (s', items) /\
                   seg_ok s' items /\ seg_inv s' /\ same_shape s s'.
Proof.
  intros Hinv. pose proof Hinv as (Hs & Hnn & Hfb & Hix & Hb).
  unfold ensure_index. destruct (needs_reindex s) eqn:En.
  - unfold reindex. rewrite (seg_inv_open_log s Hinv). cbn [bind].
    eexists _, _. split; [reflexivity|]. split; [|split].
    + apply seg_inv_seg_ok; [apply seg_inv_set_idx; assumption|]. apply derive_from_match.
    + apply seg_inv_set_idx; assumption.
    + repeat split.
  - unfold needs_reindex in En. destruct (sidx s) as [[iv items]|] eqn:Esi; [|discriminate].
    destruct items as [|i0 ir]; [discriminate|].
    destruct (Hix iv (i0 :: ir) Esi) as [Hnil|Hm]; [discriminate|].
    assert (Hopen : open_idx_reader s (iv, i0 :: ir) = Ok (i0 :: ir)).
    { unfold open_idx_reader. destruct iv; [|reflexivity].
      destruct Hm as [Ho _]. unfold first_is_base in Hfb.
      destruct (srecs s) as [|m r]; [discriminate|]. cbn in Ho. injection Ho as Ho _.
      rewrite Ho, Hfb, Z.eqb_refl. reflexivity. }
    rewrite Hopen. cbn [bind]. exists s, (i0 :: ir). split; [reflexivity|].
    split; [apply seg_inv_seg_ok; assumption|]. split; [assumption|apply same_shape_refl].
Qed.

Theorem with_index_ok c st i s :
  Inv st -> opened st = Some c -> znth (segs st) i = Some s ->
  exists st1 s' items,
    with_index H c st i = Ok (st1, s', items) /\
    seg_ok s' items /\ same_shape s s' /\ st_shape st st1 /\ Inv st1 /\
    znth (segs st1) i = Some s'.
Proof.
  intros HI Hc Hi. pose proof (Forall_znth _ _ _ _ (Inv_seg_inv _ HI) Hi) as Hsi.
  unfold with_index. rewrite Hi, (Inv_lvirt _ HI).
  destruct ((i =? zlen (segs st) - 1) && negb (cro c)) eqn:Ehd.
  - (* the writer's own index *)
    apply andb_prop in Ehd. destruct Ehd as [Hil Hro]. apply Z.eqb_eq in Hil. apply negb_true_iff in Hro.
    destruct (Inv_head st c HI Hc Hro) as (hd & Hhd & iv & items & Hsidx & Hm).
    rewrite last_opt_znth, <- Hil, Hi in Hhd. injection Hhd as <-.
    exists st, s, (head_items s). split; [reflexivity|]. unfold head_items. rewrite Hsidx.
    split; [now apply seg_inv_seg_ok|]. split; [apply same_shape_refl|].
    split; [apply st_shape_refl|]. split; [exact HI|exact Hi].
  - destruct (ensure_index_ok (cparams c) (cnewver c) s Hsi) as (s' & items & He & Hok & Hinv' & Hsh).
    rewrite He. cbn [bind].
    pose proof (znth_some _ _ _ Hi) as Hir.
    set (l1 := replace_nth (Z.to_nat i) (segs st) s').
    assert (HF2 : Forall2 same_shape (segs st) l1)
      by (apply replace_nth_shape with (s := s); [apply znth_nth_error|]; assumption).
    assert (Hi1 : znth l1 i = Some s') by (apply znth_replace_same; exact Hir).
    exists (set_segs st l1), s', items. split; [reflexivity|].
    split; [assumption|]. split; [assumption|].
    split; [split; [exact HF2|repeat split]|]. split; [|exact Hi1].
    split; [intro E; cbn [segs set_segs] in E; apply znth_some in Hi1; rewrite E in Hi1; cbn in Hi1; lia|].
    split; [apply replace_nth_Forall; [exact (Inv_seg_inv _ HI)|exact Hinv']|].
    split; [exact (chain_ok_shape _ _ HF2 (Inv_chain _ HI))|]. split; [exact (Inv_lvirt _ HI)|].
    exists c. split; [exact Hc|]. intros Hro. cbn [segs set_segs].
    (* the head is the writer's when cro c = false, so i is another segment and the head is untouched *)
    destruct (Inv_head st c HI Hc Hro) as (hd & Hhd & Hh).
    rewrite Hro, andb_true_r in Ehd. apply Z.eqb_neq in Ehd.
    rewrite last_opt_znth in Hhd |- *. unfold l1, zlen. rewrite replace_nth_length.
    fold (zlen (segs st)). rewrite znth_replace_other, Hhd by lia. exact Hh.
Qed.

(* after any number of loads the log st1 still has the shape of the log st the operation started from *)
Lemma with_index_read c st st1 i s :
  Inv st1 -> st_shape st st1 -> opened st = Some c -> znth (segs st) i = Some s ->
  exists st2 s' items, with_index H c st1 i = Ok (st2, s', items) /\ Inv st2 /\ st_shape st st2 /\
    seg_ok s' items /\ same_shape s s'.
Proof.
  intros HI1 Hsh Hc Hs. pose proof Hsh as (HF2 & Ho & _).
  destruct (Forall2_znth _ _ _ _ _ HF2 Hs) as (s1 & Hs1 & Hss1).
  destruct (with_index_ok c st1 i s1 HI1 ltac:(congruence) Hs1) as (st2 & s' & items & Hwi & Hok & Hss & Hsh2 & HI2 & _).
  exists st2, s', items. split; [exact Hwi|]. split; [exact HI2|].
  split; [exact (st_shape_trans _ _ _ Hsh Hsh2)|]. split; [exact Hok|exact (same_shape_trans _ _ _ Hss1 Hss)].
Qed.

Lemma with_index_preserves c st i st1 s' items :
  Inv st -> opened st = Some c -> with_index H c st i = Ok (st1, s', items) ->
  Inv st1 /\ abs st1 = abs st /\ opened st1 = Some c /\ zlen (segs st1) = zlen (segs st).
Proof.
  intros HInv Hc Hwi.
  destruct (znth (segs st) i) as [s|] eqn:Hs.
  - destruct (with_index_ok c st i s HInv Hc Hs) as (st1' & s'' & items' & Hwi' & _ & _ & Hst & HInv1 & _).
    rewrite Hwi in Hwi'. injection Hwi' as <- <- <-.
    split; [assumption|]. split; [now apply st_shape_abs|].
    destruct Hst as (HF2 & Hop & _). split; [congruence|].
    unfold zlen. f_equal. symmetry. eapply Forall2_len; eauto.
  - unfold with_index in Hwi. rewrite Hs in Hwi. discriminate.
Qed.

End LogInv.
